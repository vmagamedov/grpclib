(* Non-vacuity examples for C11: concrete multiplexed traces satisfy the hypotheses of the theorems,
   the conclusions are observable on them, and the excluded cases really differ.  Closed by
   evaluation. *)
From Coq Require Import ZArith List Bool.
From GV Require Import Model.Mux Proofs.C11Proofs.
Import ListNotations.
Open Scope Z_scope.

(* three client calls 1, 3, 5 with distinct payloads *)
Definition strand1 : list event :=
  [ARegister 1; EResponse 1 [10;11]; EData 1 [1;1;1] 3; EData 1 [1;2] 2; ETrailers 1 [12]; EEnded 1].
Definition strand3 : list event :=
  [ARegister 3; EResponse 3 [30]; EData 3 [3;3] 2; EReset 3 true 8; ARelease 3].       (* struck: RST_STREAM *)
Definition strand5 : list event :=
  [ARegister 5; EData 5 [5] 1; ADeadline 5; ACancel 5; ARelease 5; EData 5 [5;5] 2].   (* struck: deadline *)
(* what the connection itself sees meanwhile: tolerated frames, window updates, settings, pause/resume *)
Definition strandC : list event :=
  [EPing; EWindow 0; EUnknown; ESettings true true; EPause; EResume; EPriority].

Definition mixed : list event :=
  [ARegister 1; ARegister 3; EPing; EResponse 3 [30]; ARegister 5; EResponse 1 [10;11]; EWindow 0;
   EData 5 [5] 1; EData 1 [1;1;1] 3; EUnknown; EData 3 [3;3] 2; ADeadline 5; EReset 3 true 8;
   ESettings true true; ACancel 5; EData 1 [1;2] 2; ARelease 5; EPause; ARelease 3; ETrailers 1 [12];
   EResume; EData 5 [5;5] 2; EPriority; EEnded 1].

Ltac pick := first [apply Pick_here | apply Pick_next; pick].
Ltac merge := repeat (eapply Merge_cons; [pick|]); apply Merge_nil; repeat constructor.

Example mixed_is_interleaving : Merge [strand1; strand3; strand5; strandC] mixed.
Proof. unfold mixed, strand1, strand3, strand5, strandC. merge. Qed.

Example mixed_call1_as_alone :
  option_map strip (project 1 (run mixed (init Client))) =
  option_map strip (project 1 (run strand1 (init Client))).
Proof. vm_compute; reflexivity. Qed.

(* ... and the result is the non-trivial one: its own headers, its two chunks in order, its trailers *)
Example mixed_call1_value :
  option_map strip (project 1 (run mixed (init Client))) =
  Some (mkCall None (Some [10;11]) [QData [1;1;1] 3; QData [1;2] 2; QEof] true (Some [12])
               false true true true None false 0).
Proof. vm_compute; reflexivity. Qed.

(* the flag really differs (so "modulo wake-up flags" is needed) *)
Example mixed_call1_flag_differs :
  project 1 (run mixed (init Client)) <> project 1 (run strand1 (init Client)).
Proof. vm_compute. discriminate. Qed.

(* the struck calls are gone, the late DATA of call 5 was only credited, the connection is open *)
Example mixed_rest :
  project 3 (run mixed (init Client)) = None /\ project 5 (run mixed (init Client)) = None /\
  c_closed (st_conn (run mixed (init Client))) = false /\
  c_write_ready (st_conn (run mixed (init Client))) = true /\
  snd (fst (run_batches [mixed] (init Client) [] 0)) = [ORst 5; OAck 5 1; OAck 3 2; OAck 5 2].
Proof. vm_compute. repeat split; reflexivity. Qed.

(* hypotheses of the interleaving theorem on this trace *)
Example mixed_hyps :
  (forall e, In e (nth 0 [strand1; strand3; strand5; strandC] []) -> addr e = Some 1) /\
  forallb (fun e => negb (fatal e)) mixed = true.
Proof.
  split; [|vm_compute; reflexivity].
  cbn [nth strand1]. intros e H. repeat (destruct H as [<-|H]; [reflexivity|]). destruct H.
Qed.

(* failure_contained: the strikes against call 3, anywhere *)
Example strike3 :
  let pre := [ARegister 1; ARegister 3; EResponse 1 [10;11]; EData 3 [3] 1] in
  let fs := [EReset 3 false 1; ADeadline 3; EResponse 3 [255]; ETrailers 3 []; ACancel 3; ARelease 3] in
  let post := [EData 1 [1] 1; EEnded 1] in
  project 1 (run (pre ++ fs ++ post) (init Client)) = project 1 (run (pre ++ post) (init Client)) /\
  project 1 (run (pre ++ fs ++ post) (init Client)) =
    Some (mkCall None (Some [10;11]) [QData [1] 1; QEof] true None false true true true None false 0).
Proof. vm_compute. split; reflexivity. Qed.

(* server side: two handlers, one reset before its wrapper exists, the other served normally *)
Definition server_trace : list event :=
  [ERequest 1 [1]; ERequest 3 [3]; EReset 3 true 8; AAttach 1; EData 1 [7;7] 2; EPing; EEnded 1; ARelease 3].

Example server_values :
  project 1 (run server_trace (init Server)) =
    Some (mkCall (Some [1]) None [QData [7;7] 2; QEof] true None false false true true None true 0) /\
  project 3 (run (firstn 3 server_trace) (init Server)) =
    Some (mkCall (Some [3]) None [] false None false false false false None false 1) /\
  project 3 (run server_trace (init Server)) = None.
Proof. vm_compute. repeat split; reflexivity. Qed.

(* a fatal event reaches every call, with its own reason; a second close overwrites the reason *)
Example goaway_then_lost :
  option_map cs_error (project 1 (run [ARegister 1; ARegister 3; EGoaway 2] (init Client))) = Some (Some (RGoaway 2)) /\
  option_map cs_error (project 3 (run [ARegister 1; ARegister 3; EGoaway 2] (init Client))) = Some (Some (RGoaway 2)) /\
  option_map cs_error (project 3 (run [ARegister 1; ARegister 3; EGoaway 2; EConnLost] (init Client))) = Some (Some RConnLost) /\
  (* after the close, h2 events are ignored *)
  option_map cs_headers (project 1 (run [ARegister 1; EGoaway 0; EResponse 1 [9]] (init Client))) = Some None.
Proof. vm_compute. repeat split; reflexivity. Qed.

(* D20 as the model shows it: Server.close-style shutdown then connection_lost cancels the task twice *)
Example double_cancel_on_two_closes :
  option_map cs_cancels (project 1 (run [ERequest 1 []; EChannelClose; EConnLost] (init Server))) = Some 2%nat.
Proof. vm_compute; reflexivity. Qed.

(* D11 (repaired): an unknown frame inside a batch does not drop the frames of other calls *)
Example unknown_frame_in_batch :
  run_batch [EResponse 1 [1]; EUnknown; EResponse 3 [3]; EData 3 [3] 1]
            (run [ARegister 1; ARegister 3] (init Client)) [] =
  run_batch [EResponse 1 [1]; EResponse 3 [3]; EData 3 [3] 1]
            (run [ARegister 1; ARegister 3] (init Client)) [].
Proof. vm_compute; reflexivity. Qed.

(* a second StreamReset for a server stream whose task was already popped (h2 never sends one) is
   harmless now: Handler.cancel pops with a default; the rest of the read reaches the other calls *)
Example second_reset_is_harmless :
  let s0 := run [ERequest 1 []; ERequest 3 []; EReset 1 true 0] (init Server) in
  raises s0 (EReset 1 true 0) = false /\
  option_map cs_cancels (project 1 (step s0 (EReset 1 true 0))) = Some 1%nat /\
  option_map cs_queue (project 3 (fst (fst (run_batch [EReset 1 true 0; EData 3 [3] 1] s0 [])))) =
    Some [QData [3] 1].
Proof. vm_compute. repeat split; reflexivity. Qed.

(* StreamEnded without trailers wakes a reader of the trailers (trailers_received is set, trailers None) *)
Example ended_without_trailers :
  option_map recv_ready (project 1 (run [ARegister 1; EResponse 1 [1]; EEnded 1] (init Client))) =
    Some (true, true, true, false) /\
  option_map cs_trailers (project 1 (run [ARegister 1; EResponse 1 [1]; EEnded 1] (init Client))) = Some None.
Proof. vm_compute. split; reflexivity. Qed.

Example no_raise_on_mixed : no_raise mixed (init Client) = true.
Proof. vm_compute; reflexivity. Qed.

(* spurious wake-up: a connection WINDOW_UPDATE while the stream's own window is exhausted *)
Example spurious_example :
  let c := set_wu true (new_call None true false) in
  sender_wake true 0 16384 100 c = (set_wu false c, SWaitWindow) /\
  sender_wake true 70 16384 100 c = (c, SSend 70) /\
  sender_wake true 70000 16384 100000 c = (c, SSend 16384).
Proof. vm_compute. repeat split; reflexivity. Qed.

(* keys stay distinct on a trace that re-registers an id *)
Example reregister :
  map fst (st_reg (run [ERequest 1 [1]; ERequest 3 [3]; ERequest 1 [2]] (init Server))) = [1; 3] /\
  option_map cs_req (project 1 (run [ERequest 1 [1]; ERequest 3 [3]; ERequest 1 [2]] (init Server))) = Some (Some [2]).
Proof. vm_compute. split; reflexivity. Qed.

(* isolation inside one read, on a concrete read: three calls, tolerated frames, a RST_STREAM for call 3 in the middle *)
Example read_isolation_example :
  let s0 := run [ARegister 1; ARegister 3; ARegister 5] (init Client) in
  let es1 := [EResponse 1 [1]; EUnknown; EData 3 [3] 1] in
  let es2 := [EData 1 [1;1] 2; EPing; EResponse 5 [5]; EEnded 1] in
  option_map cs_queue (project 1 (fst (fst (run_batch (es1 ++ EReset 3 true 8 :: es2) s0 [])))) =
    Some [QData [1;1] 2; QEof] /\
  option_map cs_error (project 3 (fst (fst (run_batch (es1 ++ EReset 3 true 8 :: es2) s0 [])))) =
    Some (Some (RRemoteReset 8)).
Proof. vm_compute. split; reflexivity. Qed.

(* D21 repaired, as the model shows it: the read [HEADERS(even stream 2); HEADERS(call 1)] refuses and
   releases stream 2 at once, raises nothing, and call 1 gets its headers; an older call that happened to
   have that id would be overwritten and released (the id spaces are disjoint, so it cannot) *)
Example d21_repaired :
  let s0 := run [ARegister 1] (init Client) in
  let r := run_batch [ERequest 2 []; EResponse 1 [7]] s0 [] in
  snd r = false /\ option_map cs_headers (project 1 (fst (fst r))) = Some (Some [7]) /\
  map fst (st_reg (fst (fst r))) = [1] /\ c_slot_wake (st_conn (fst (fst r))) = true.
Proof. vm_compute. repeat split; reflexivity. Qed.
