(* Proofs for Props/C20.v: the protoc plugin model (Model/Plugin.v).
   The types map is characterised by `resolves` (a declaration with that full name); main() is shown to be a
   function of the descriptor set, `spec_module`, raising only where `gen_ok` fails (each stage `decides`);
   the statements about the rendered and the executed module are then statements about `spec_module`. *)
From Coq Require Import ZArith List Bool Lia FinFun.
From GV Require Import Lib.Str Lib.StrFacts Gen.Facts Gen.FactsC20 Model.Plugin.
Import ListNotations.
Open Scope Z_scope.

Lemma starts_with_app p s : starts_with p (p ++ s) = true.
Proof.
  induction p as [|x p IH]; cbn [starts_with app]; [reflexivity|].
  rewrite Z.eqb_refl. exact IH.
Qed.

Lemma starts_with_inv p s : starts_with p s = true -> exists r, s = p ++ r.
Proof.
  revert s. induction p as [|x p IH]; intros s H; cbn [starts_with] in H.
  - exists s. reflexivity.
  - destruct s as [|y s]; [discriminate|]. apply andb_true_iff in H as [Hx Hr].
    apply Z.eqb_eq in Hx. subst y. destruct (IH _ Hr) as [r ->]. exists r. reflexivity.
Qed.

Lemma ends_with_app suf b : ends_with suf (b ++ suf) = true.
Proof. unfold ends_with. rewrite rev_app_distr. apply starts_with_app. Qed.

Lemma ends_with_inv suf s : ends_with suf s = true -> exists b, s = b ++ suf.
Proof.
  unfold ends_with. intros H. apply starts_with_inv in H as [r Hr].
  exists (rev r). rewrite <- (rev_involutive s), Hr, rev_app_distr, rev_involutive. reflexivity.
Qed.

Lemma firstn_drop_suffix {A} (b suf : list A) :
  firstn (length (b ++ suf) - length suf) (b ++ suf) = b.
Proof. rewrite app_length, Nat.add_sub, firstn_app, firstn_all, Nat.sub_diag. apply app_nil_r. Qed.

Lemma lookup_last_spec {A} k (l : list (str * A)) :
  match lookup_last k l with Some v => In (k, v) l | None => ~ In k (map fst l) end.
Proof.
  induction l as [|[k' v'] r IH]; cbn [lookup_last map fst In]; [tauto|].
  destruct (lookup_last k r); [tauto|].
  destruct (zlist_eqb_spec k k') as [->|]; [tauto | intuition congruence].
Qed.

Lemma lookup_last_Some_In {A} k (v : A) l : lookup_last k l = Some v -> In (k, v) l.
Proof. intros H. pose proof (lookup_last_spec k l) as S. rewrite H in S. exact S. Qed.

Lemma lookup_last_None {A} k (l : list (str * A)) :
  lookup_last k l = None <-> ~ In k (map fst l).
Proof.
  pose proof (lookup_last_spec k l) as S. destruct (lookup_last k l); [|tauto].
  apply (in_map fst) in S. split; [discriminate | contradiction].
Qed.

Lemma lookup_last_NoDup {A} k (v : A) l :
  NoDup (map fst l) -> In (k, v) l -> lookup_last k l = Some v.
Proof.
  induction l as [|[k' v'] r IH]; cbn [map fst]; intros Hnd Hin; [contradiction|].
  inversion Hnd as [|? ? Hnot Hnd']; subst. cbn [lookup_last]. destruct Hin as [Heq|Hin].
  - injection Heq as -> ->. apply lookup_last_None in Hnot. rewrite Hnot, zlist_eqb_refl. reflexivity.
  - rewrite (IH Hnd' Hin). reflexivity.
Qed.

Lemma lookup_last_app {A} k (l1 l2 : list (str * A)) :
  lookup_last k (l1 ++ l2) =
  match lookup_last k l2 with Some x => Some x | None => lookup_last k l1 end.
Proof.
  induction l1 as [|[k' v] r IH]; cbn [app lookup_last].
  - destruct (lookup_last k l2); reflexivity.
  - rewrite IH. destruct (lookup_last k l2); reflexivity.
Qed.

Lemma assoc_dict_set {V} k k' (v : V) d :
  assoc_str k (dict_set k' v d) = if zlist_eqb k k' then Some v else assoc_str k d.
Proof.
  induction d as [|[k0 v0] r IH]; cbn [dict_set assoc_str]; [reflexivity|].
  destruct (zlist_eqb_spec k' k0) as [<-|Hne]; cbn [assoc_str].
  - destruct (zlist_eqb k k'); reflexivity.
  - rewrite IH. destruct (zlist_eqb_spec k k0) as [->|]; [|reflexivity].
    destruct (zlist_eqb_spec k0 k'); [congruence | reflexivity].
Qed.

Lemma dict_set_spec {V} k (v : V) d :
  (In k (map fst d) /\ map fst (dict_set k v d) = map fst d) \/
  (~ In k (map fst d) /\ dict_set k v d = d ++ [(k, v)]).
Proof.
  induction d as [|[k0 v0] r IH]; cbn [dict_set map fst In app]; [right; tauto|].
  destruct (zlist_eqb_spec k k0) as [->|Hne]; [left; auto|].
  destruct IH as [[Hin E]|[Hnot E]]; [left | right]; cbn [map fst]; rewrite E; intuition congruence.
Qed.

Lemma dict_set_NoDup {V} k (v : V) d : NoDup (map fst d) -> NoDup (map fst (dict_set k v d)).
Proof.
  intros H. destruct (dict_set_spec k v d) as [[_ ->]|[Hk ->]]; [exact H|].
  rewrite map_app. apply (NoDup_Add (Add_app k (map fst d) [])). rewrite app_nil_r. auto.
Qed.

(* dict_of binds the keys one after the other: all three facts about it go by induction from the end *)
Lemma dict_of_snoc {V} k (v : V) l : dict_of (l ++ [(k, v)]) = dict_set k v (dict_of l).
Proof. unfold dict_of. rewrite fold_left_app. reflexivity. Qed.

Lemma dict_of_last_wins {V} k (l : list (str * V)) : assoc_str k (dict_of l) = lookup_last k l.
Proof.
  induction l as [|[k' v] l IH] using rev_ind; [reflexivity|].
  rewrite dict_of_snoc, assoc_dict_set, IH, lookup_last_app. cbn [lookup_last].
  destruct (zlist_eqb k k'); reflexivity.
Qed.

Lemma dict_of_NoDup {V} (l : list (str * V)) : NoDup (map fst (dict_of l)).
Proof.
  induction l as [|[k v] l IH] using rev_ind; [constructor|].
  rewrite dict_of_snoc. apply dict_set_NoDup, IH.
Qed.

Lemma dict_of_NoDup_id {V} (l : list (str * V)) : NoDup (map fst l) -> dict_of l = l.
Proof.
  induction l as [|[k v] l IH] using rev_ind; [reflexivity|].
  rewrite map_app. intros H. apply NoDup_remove in H as [Hl Hk]. rewrite app_nil_r in Hl, Hk.
  rewrite dict_of_snoc, (IH Hl). destruct (dict_set_spec k v l) as [[Hin _]|[_ E]]; [contradiction | exact E].
Qed.

Lemma dict_of_map_id {A V} (h h' : A -> str * V) l :
  (forall x, In x l -> h x = h' x) -> NoDup (map (fun x => fst (h' x)) l) -> dict_of (map h l) = map h' l.
Proof.
  intros Hh Hnd. rewrite (map_ext_in _ _ _ Hh). apply dict_of_NoDup_id. rewrite map_map. exact Hnd.
Qed.

(* at x, f returns g x if P x holds and raises e x otherwise *)
Definition decides {E A B} (f : A -> res E B) (P : A -> Prop) (g : A -> B) (e : A -> E) (x : A) : Prop :=
  (P x /\ f x = Ok (g x)) \/ (~ P x /\ f x = Err (e x)).

Lemma mapM_decides {E A B} (f : A -> res E B) P g e l :
  (forall x, decides f P g e x) ->
  ((forall x, In x l -> P x) /\ mapM f l = Ok (map g l)) \/
  (exists x, In x l /\ ~ P x /\ mapM f l = Err (e x)).
Proof.
  intros Hf. induction l as [|x l IH]; cbn [mapM map].
  - left. split; [intros x []|reflexivity].
  - destruct (Hf x) as [[Hx ->]|[Hx ->]]; [|right; exists x; auto using in_eq].
    destruct IH as [[Hl ->]|[x' [Hin [Hx' ->]]]].
    + left. split; [intros x' [<-|Hx']; auto | reflexivity].
    + right. exists x'. auto using in_cons.
Qed.

Lemma mapM_map_Ok {E A B C} (f : B -> res E C) (h : A -> B) (g : A -> C) l :
  (forall x, f (h x) = Ok (g x)) -> mapM f (map h l) = Ok (map g l).
Proof. intros H. induction l as [|x l IH]; cbn [map mapM]; [|rewrite H, IH]; reflexivity. Qed.

Lemma mapM_fails {E A B} (f : A -> res E B) l x e :
  In x l -> f x = Err e -> exists e', mapM f l = Err e'.
Proof.
  intros Hin Hx. induction l as [|a l IH]; [contradiction|]. cbn [mapM]. destruct Hin as [->|Hin].
  - rewrite Hx. eauto.
  - destruct (f a); [|eauto]. destruct (IH Hin) as [e' ->]. eauto.
Qed.

Definition dash_slash (c : Z) : Z := if c =? 45 then 95 else if c =? 47 then 46 else c.

Lemma base_module_name_spec p : base_module_name p = map dash_slash (strip_proto p).
Proof.
  unfold base_module_name, base_replacements. cbn [fold_left fst snd].
  unfold replace_char. rewrite map_map. apply map_ext. intros c. unfold dash_slash.
  destruct (Z.eqb_spec c 45) as [->|]; reflexivity.
Qed.

Lemma strip_first_hit sufs1 suf sufs2 b :
  (forall s, In s sufs1 -> ends_with s (b ++ suf) = false) ->
  strip_first (sufs1 ++ suf :: sufs2) (b ++ suf) = b.
Proof.
  intros H. induction sufs1 as [|s r IH]; cbn [app strip_first].
  - rewrite ends_with_app. apply firstn_drop_suffix.
  - rewrite (H s (in_eq s r)). apply IH. intros s' Hs'. apply H, in_cons, Hs'.
Qed.

Lemma strip_first_miss sufs p : (forall s, In s sufs -> ends_with s p = false) -> strip_first sufs p = p.
Proof.
  intros H. induction sufs as [|s r IH]; cbn [strip_first]; [reflexivity|].
  rewrite (H s (in_eq s r)). apply IH. intros s' Hs'. apply H, in_cons, Hs'.
Qed.

Lemma strip_proto_prefix p : exists suf, p = strip_proto p ++ suf.
Proof.
  unfold strip_proto. induction strip_suffixes as [|s r IH]; cbn [strip_first].
  - exists []. symmetry. apply app_nil_r.
  - destruct (ends_with s p); [|exact IH]. eexists. symmetry. apply firstn_skipn.
Qed.

Lemma module_name_no_dash_slash p c : In c (base_module_name p) -> c <> 45 /\ c <> 47.
Proof.
  rewrite base_module_name_spec, in_map_iff. intros [x [<- _]]. unfold dash_slash.
  destruct (Z.eqb_spec x 45); [lia|]. destruct (Z.eqb_spec x 47); lia.
Qed.

(* `declares ms path`: path = [Outer; ...; Inner] names a message nested along that chain in ms *)
Fixpoint declares (ms : list msg) (path : list str) : Prop :=
  match path with
  | [] => False
  | n :: rest => exists ns, In (Msg n ns) ms /\ (rest = [] \/ declares ns rest)
  end.

(* induction on the nesting: Q holds of ms if it holds of what is nested in each member of ms *)
Lemma msgs_ind (Q : list msg -> Prop) :
  (forall ms, (forall n ns, In (Msg n ns) ms -> Q ns) -> Q ms) -> forall ms, Q ms.
Proof.
  intros Hstep.
  (* the recursion is on a message; the list inside it is walked by an ordinary induction, and the
     recursive call is made on the member x itself, before x is known to be the `Msg n' ns'` looked for *)
  assert (nested : forall m, Q (let 'Msg _ ns := m in ns)).
  { fix IH 1. intros [n ns]. apply Hstep. induction ns as [|x r IHr]; intros n' ns' H; [destruct H|].
    destruct H as [E|H]; [|exact (IHr n' ns' H)].
    pose proof (IH x) as Qx. rewrite E in Qx. exact Qx. }
  intros ms. exact (nested (Msg [] ms)).
Qed.

Lemma type_names_unfold pkg modname parents n ns :
  type_names pkg modname parents (Msg n ns) =
  (proto_name pkg (parents ++ [n]), py_name modname (parents ++ [n])) ::
  msgs_types pkg modname (parents ++ [n]) ns.
Proof.
  reflexivity.   (* the inner fix of type_names is flat_map itself *)
Qed.

Lemma in_msgs_types pkg modname kv : forall ms parents,
  In kv (msgs_types pkg modname parents ms) <->
  exists path, declares ms path /\
               kv = (proto_name pkg (parents ++ path), py_name modname (parents ++ path)).
Proof.
  induction ms as [ms IH] using msgs_ind. intros parents. unfold msgs_types at 1. rewrite in_flat_map. split.
  - intros [[n ns] [Hm Hin]]. rewrite type_names_unfold in Hin. destruct Hin as [<-|Hin].
    + exists [n]. cbn [declares]. eauto 6.
    + apply (IH n ns Hm) in Hin as [path [Hd ->]]. exists (n :: path).
      rewrite <- !app_assoc. cbn [declares]. eauto 6.
  - intros [[|n rest] [Hd ->]]; [contradiction|]. destruct Hd as [ns [Hm Hrest]].
    exists (Msg n ns). split; [exact Hm|]. rewrite type_names_unfold. destruct Hrest as [->|Hd]; [left; reflexivity|].
    right. apply (IH n ns Hm). exists rest. rewrite <- !app_assoc. auto.
Qed.

(* `resolves files t py`: some file of the request declares a message whose fully-qualified proto
   name is t, and py is that message's python path <pb2 module>.<Outer>...<Inner> *)
Definition resolves (files : list file) (t py : str) : Prop :=
  exists f path, In f files /\ declares (f_msgs f) path /\
                 t = proto_name (f_package f) path /\
                 py = py_name (pb2_module_name (f_name f)) path.

Definition unique_types (files : list file) : Prop := NoDup (map fst (types_entries files)).

Lemma resolves_iff_entry files t py : resolves files t py <-> In (t, py) (types_entries files).
Proof.
  unfold resolves, types_entries. rewrite in_flat_map. split.
  - intros [f [path [Hf [Hd [-> ->]]]]]. exists f. split; [exact Hf|]. apply in_msgs_types. exists path. auto.
  - intros [f [Hf Hin]]. apply in_msgs_types in Hin as [path [Hd [= -> ->]]]. exists f, path. auto.
Qed.

Lemma lookup_sound files t py : lookup_last t (types_entries files) = Some py -> resolves files t py.
Proof. intros H. apply resolves_iff_entry, lookup_last_Some_In, H. Qed.

Lemma lookup_none files t :
  lookup_last t (types_entries files) = None <-> ~ exists py, resolves files t py.
Proof.
  rewrite lookup_last_None. split; intros H.
  - intros [py Hr]. apply H. apply resolves_iff_entry, (in_map fst) in Hr. exact Hr.
  - intros Hin. apply in_map_iff in Hin as [[k v] [<- Hin]].
    apply H. exists v. apply resolves_iff_entry. exact Hin.
Qed.

Lemma lookup_not_None files t :
  lookup_last t (types_entries files) <> None <-> exists py, resolves files t py.
Proof.
  split.
  - destruct (lookup_last t (types_entries files)) as [py|] eqn:E; [|contradiction].
    exists py. apply lookup_sound, E.
  - intros Hex E. apply lookup_none in E. contradiction.
Qed.

Lemma lookup_complete files t py :
  unique_types files -> resolves files t py -> lookup_last t (types_entries files) = Some py.
Proof. intros Hu Hr. apply lookup_last_NoDup; [exact Hu | apply resolves_iff_entry, Hr]. Qed.

Lemma resolves_functional files t p1 p2 :
  unique_types files -> resolves files t p1 -> resolves files t p2 -> p1 = p2.
Proof. intros Hu H1 H2. apply (lookup_complete _ _ _ Hu) in H1, H2. congruence. Qed.

Lemma cardinality_tables cs ss :
  exists c cls, cardinality_of cs ss = Some c /\ member_flags c = Some (cs, ss) /\
                method_cls c = Some cls /\ class_cardinality cls = Some c.
Proof. destruct cs, ss; do 2 eexists; (split; [|split; [|split]]); reflexivity. Qed.

(* member_flags is a left inverse *)
Lemma cardinality_injective cs ss cs' ss' :
  cardinality_of cs ss = cardinality_of cs' ss' -> (cs, ss) = (cs', ss').
Proof.
  destruct (cardinality_tables cs ss) as [c [_ [-> [Hf _]]]].
  destruct (cardinality_tables cs' ss') as [c' [_ [-> [Hf' _]]]]. intros [= <-]. congruence.
Qed.

Lemma cardinality_member_of_table name flags :
  In (name, flags) cardinality_members -> cardinality_of (fst flags) (snd flags) = Some name.
Proof. intros [H|[H|[H|[H|[]]]]]; injection H as <- <-; reflexivity. Qed.

Lemma method_cls_of_cardinality cs ss c : cardinality_of cs ss = Some c -> exists cls, method_cls c = Some cls.
Proof.
  intros H. destruct (cardinality_tables cs ss) as [c' [cls [H1 [_ [H3 _]]]]].
  rewrite H in H1. injection H1 as ->. exists cls. exact H3.
Qed.

(* the_card .. the_cls below are total by the default []: cardinality_of never fails (cardinality_tables)
   and the two type lookups succeed wherever the statements are used, under method_ok / gen_ok *)
Definition od {A} (d : A) (o : option A) : A := match o with Some x => x | None => d end.

Section spec.
  Variable tm : list (str * str).

  Definition the_card (m : method) : str := od [] (cardinality_of (me_cs m) (me_ss m)).
  Definition the_req (m : method) : str := od [] (lookup_last (me_in m) tm).
  Definition the_rep (m : method) : str := od [] (lookup_last (me_out m) tm).
  Definition the_cls (m : method) : str := od [] (method_cls (the_card m)).

  Definition spec_entry (pkg svc : str) (m : method) : map_entry :=
    MapEntry (route pkg svc (me_name m)) (me_name m) (the_card m) (the_req m) (the_rep m).
  Definition spec_stub (pkg svc : str) (m : method) : stub_entry :=
    StubEntry (me_name m) (the_cls m) (route pkg svc (me_name m)) (the_req m) (the_rep m).
  Definition spec_service (pkg : str) (s : service) : aservice :=
    AService (sv_name s) (map me_name (sv_methods s))
             (map (spec_entry pkg (sv_name s)) (sv_methods s))
             (map (spec_stub pkg (sv_name s)) (sv_methods s)).
  Definition spec_module (pf : file) (g : str) : amodule :=
    match f_services pf with
    | [] => AModule (f_name pf) [] [] []
    | _ => AModule (f_name pf) (std_imports ++ map pb2_module_name (f_deps pf ++ [g])) guarded_imports
                   (map (spec_service (f_package pf)) (f_services pf))
    end.

  (* the lookups main() performs for one method all succeed *)
  Definition method_ok (m : method) : Prop :=
    lookup_last (me_in m) tm <> None /\ lookup_last (me_out m) tm <> None.
  Definition service_ok (s : service) : Prop := forall m, In m (sv_methods s) -> method_ok m.
  Definition file_ok (pf : file) : Prop := forall s, In s (f_services pf) -> service_ok s.

  Definition spec_pmethod (m : method) : pmethod := PMethod (me_name m) (the_card m) (the_req m) (the_rep m).
  Definition spec_pservice (s : service) : pservice := PService (sv_name s) (map spec_pmethod (sv_methods s)).

  Lemma mk_method_decides m : decides (mk_method tm) method_ok spec_pmethod (fun _ => EKeyError) m.
  Proof.
    unfold decides, mk_method, method_ok, spec_pmethod, the_card, the_req, the_rep.
    destruct (cardinality_tables (me_cs m) (me_ss m)) as [c [_ [-> _]]].
    destruct (lookup_last (me_in m) tm), (lookup_last (me_out m) tm); cbn [od];
      [left; repeat split; discriminate | right; split; [intros [H1 H2]; congruence | reflexivity] ..].
  Qed.

  Lemma mk_service_decides s : decides (mk_service tm) service_ok spec_pservice (fun _ => EKeyError) s.
  Proof.
    unfold decides, mk_service, spec_pservice.
    destruct (mapM_decides _ _ _ _ (sv_methods s) mk_method_decides) as [[Hok ->]|[m [Hm [Hnot ->]]]];
      [left; auto | right]. split; [intros H; exact (Hnot (H m Hm)) | reflexivity].
  Qed.

  (* on what main() hands over, render never reaches its TypeError *)
  Lemma render_stub_entry_spec pkg svc m :
    render_stub_entry pkg svc (spec_pmethod m) = Ok (spec_stub pkg svc m).
  Proof.
    unfold render_stub_entry, spec_pmethod, spec_stub, the_cls, the_card. cbn [pm_card pm_name pm_req pm_rep].
    destruct (cardinality_tables (me_cs m) (me_ss m)) as [c [cls [-> [_ [Hcls _]]]]].
    cbn [od]. rewrite Hcls. reflexivity.
  Qed.

  Lemma render_service_spec pkg s :
    render_service pkg (spec_pservice s) = Ok (spec_service pkg s).
  Proof.
    unfold render_service, spec_pservice, spec_service. cbn [ps_name ps_methods].
    rewrite (mapM_map_Ok _ _ _ _ (render_stub_entry_spec pkg (sv_name s))), !map_map. reflexivity.
  Qed.

  Lemma render_spec pf g :
    render (f_name pf) (f_package pf) (map pb2_module_name (f_deps pf ++ [g]))
           (map spec_pservice (f_services pf)) = Ok (spec_module pf g).
  Proof.
    unfold render, spec_module. rewrite (mapM_map_Ok _ _ _ _ (render_service_spec (f_package pf))).
    destruct (f_services pf); reflexivity.
  Qed.

  Variable files : list file.

  Definition gen_ok (g : str) : Prop := exists pf, get_proto files g = Some pf /\ file_ok pf.
  (* the output for g; the module of the last case is never produced *)
  Definition spec_file (g : str) : str * amodule :=
    (out_file_name g,
     match get_proto files g with Some pf => spec_module pf g | None => AModule g [] [] [] end).

  (* StopIteration from _get_proto, KeyError from the lookups, nothing else *)
  Definition gen_exn (g : str) : gen_err :=
    match get_proto files g with None => EStopIteration | Some _ => EKeyError end.

  Lemma gen_file_decides g : decides (gen_file tm files) gen_ok spec_file gen_exn g.
  Proof.
    unfold decides, gen_file, gen_ok, spec_file, gen_exn. destruct (get_proto files g) as [pf|].
    - destruct (mapM_decides _ _ _ _ (f_services pf) mk_service_decides) as [[Hok ->]|[s [Hs [Hnot ->]]]].
      + left. rewrite render_spec. eauto.
      + right. split; [|reflexivity]. intros [pf' [[= <-] Hok]]. exact (Hnot (Hok s Hs)).
    - right. split; [intros [pf [[=] _]] | reflexivity].
  Qed.
End spec.

Lemma main_Ok req mods :
  main req = Ok mods <->
  (forall g, In g (r_gen req) -> gen_ok (types_entries (r_files req)) (r_files req) g) /\
  mods = map (spec_file (types_entries (r_files req)) (r_files req)) (r_gen req).
Proof.
  unfold main. destruct (mapM_decides _ _ _ _ (r_gen req) (gen_file_decides (types_entries (r_files req)) (r_files req)))
    as [[Hok ->]|[g [Hg [Hnot ->]]]].
  - split; [intros [= <-]; auto | intros [_ ->]; reflexivity].
  - split; [discriminate | intros [Hok _]; contradiction (Hnot (Hok g Hg))].
Qed.

Lemma main_In req mods g pf :
  main req = Ok mods -> In g (r_gen req) -> get_proto (r_files req) g = Some pf ->
  In (out_file_name g, spec_module (types_entries (r_files req)) pf g) mods.
Proof.
  intros H Hg Hp. apply main_Ok in H as [_ ->]. apply in_map_iff. exists g.
  unfold spec_file. rewrite Hp. auto.
Qed.

Lemma main_fails req g :
  In g (r_gen req) -> ~ gen_ok (types_entries (r_files req)) (r_files req) g -> exists e, main req = Err e.
Proof.
  intros Hg Hnot. destruct (main req) eqn:E; [|eauto]. apply main_Ok in E as [Hok _].
  contradiction (Hok g Hg).
Qed.

Lemma get_proto_Some files g pf : get_proto files g = Some pf -> In pf files /\ f_name pf = g.
Proof.
  unfold get_proto. intros H. apply find_some in H as [Hin He]. apply zlist_eqb_eq in He. auto.
Qed.

Lemma get_proto_unique files pf :
  NoDup (map f_name files) -> In pf files -> get_proto files (f_name pf) = Some pf.
Proof.
  unfold get_proto. induction files as [|f r IH]; cbn [map find]; intros Hnd Hin; [contradiction|].
  inversion Hnd as [|? ? Hnot Hnd']; subst. destruct Hin as [->|Hin].
  - rewrite zlist_eqb_refl. reflexivity.
  - destruct (zlist_eqb_spec (f_name f) (f_name pf)) as [E|]; [|apply IH; assumption].
    contradiction Hnot. rewrite E. apply in_map, Hin.
Qed.

Lemma get_proto_None files g : get_proto files g = None <-> ~ In g (map f_name files).
Proof.
  split.
  - intros H Hin. apply in_map_iff in Hin as [f [<- Hin]].
    apply (find_none _ _ H) in Hin. rewrite zlist_eqb_refl in Hin. discriminate.
  - intros H. destruct (get_proto files g) as [f|] eqn:E; [|reflexivity].
    apply get_proto_Some in E as [Hin <-]. contradiction H. apply in_map, Hin.
Qed.

Lemma spec_module_classes tm pf g :
  a_classes (spec_module tm pf g) = map (spec_service tm (f_package pf)) (f_services pf).
Proof. unfold spec_module. destruct (f_services pf); reflexivity. Qed.

Lemma spec_module_imports tm pf g :
  f_services pf <> [] ->
  a_imports (spec_module tm pf g) = std_imports ++ map pb2_module_name (f_deps pf ++ [g]) /\
  a_guarded (spec_module tm pf g) = guarded_imports.
Proof. unfold spec_module. destruct (f_services pf); [contradiction|]. intros _. split; reflexivity. Qed.

Lemma spec_module_empty tm pf g :
  f_services pf = [] -> spec_module tm pf g = AModule (f_name pf) [] [] [].
Proof. unfold spec_module. intros ->. reflexivity. Qed.

Lemma rpc_rendered req mods g pf s m rq rp :
  unique_types (r_files req) ->
  main req = Ok mods -> In g (r_gen req) -> get_proto (r_files req) g = Some pf ->
  In s (f_services pf) -> In m (sv_methods s) ->
  resolves (r_files req) (me_in m) rq -> resolves (r_files req) (me_out m) rp ->
  exists am a c cls,
    In (out_file_name g, am) mods /\ In a (a_classes am) /\ as_name a = sv_name s /\
    cardinality_of (me_cs m) (me_ss m) = Some c /\ member_flags c = Some (me_cs m, me_ss m) /\
    method_cls c = Some cls /\ class_cardinality cls = Some c /\
    In (me_name m) (as_abstract a) /\
    In (MapEntry (route (f_package pf) (sv_name s) (me_name m)) (me_name m) c rq rp) (as_mapping a) /\
    In (StubEntry (me_name m) cls (route (f_package pf) (sv_name s) (me_name m)) rq rp) (as_stub a).
Proof.
  intros Hu Hmain Hg Hp Hs Hm Hrq Hrp.
  destruct (cardinality_tables (me_cs m) (me_ss m)) as [c [cls [Hc [Hf [Hcls Hcc]]]]].
  exists (spec_module (types_entries (r_files req)) pf g), (spec_service (types_entries (r_files req)) (f_package pf) s), c, cls.
  split; [exact (main_In _ _ _ _ Hmain Hg Hp)|].
  split; [rewrite spec_module_classes; apply in_map, Hs|].
  split; [reflexivity|]. repeat (split; [assumption|]).
  cbn [spec_service as_abstract as_mapping as_stub]. split; [apply in_map, Hm|].
  (* the entries of m are the stated ones once its three lookups are known *)
  split; apply in_map_iff; exists m; (split; [|exact Hm]);
    unfold spec_entry, spec_stub, the_cls, the_card, the_req, the_rep;
    rewrite Hc, (lookup_complete _ _ _ Hu Hrq), (lookup_complete _ _ _ Hu Hrp); cbn [od];
    rewrite ?Hcls; reflexivity.
Qed.

(* shape of the module: names in declaration order, one entry per declared method, nothing else *)
Definition service_shape (pkg : str) (s : service) (a : aservice) : Prop :=
  as_name a = sv_name s /\
  as_abstract a = map me_name (sv_methods s) /\
  map e_func (as_mapping a) = map me_name (sv_methods s) /\
  map s_attr (as_stub a) = map me_name (sv_methods s) /\
  map e_route (as_mapping a) = map (fun m => route pkg (sv_name s) (me_name m)) (sv_methods s) /\
  map s_route (as_stub a) = map (fun m => route pkg (sv_name s) (me_name m)) (sv_methods s).

Lemma spec_service_shape tm pkg s : service_shape pkg s (spec_service tm pkg s).
Proof.
  unfold service_shape, spec_service. cbn [as_name as_abstract as_mapping as_stub].
  rewrite !map_map. repeat split; reflexivity.
Qed.

Lemma Forall2_map {A B C} (P : B -> C -> Prop) (f : A -> B) (g : A -> C) l :
  (forall x, P (f x) (g x)) -> Forall2 P (map f l) (map g l).
Proof. intros H. induction l; cbn [map]; constructor; auto. Qed.

Lemma module_shape req mods g pf :
  main req = Ok mods -> In g (r_gen req) -> get_proto (r_files req) g = Some pf ->
  exists am, In (out_file_name g, am) mods /\ a_source am = f_name pf /\
    (f_services pf = [] -> a_imports am = [] /\ a_guarded am = [] /\ a_classes am = []) /\
    (f_services pf <> [] ->
       a_imports am = std_imports ++ map pb2_module_name (f_deps pf ++ [g]) /\
       a_guarded am = guarded_imports) /\
    Forall2 (service_shape (f_package pf)) (f_services pf) (a_classes am).
Proof.
  intros Hmain Hg Hp. eexists. split; [exact (main_In _ _ _ _ Hmain Hg Hp)|]. split; [|split; [|split]].
  - unfold spec_module. destruct (f_services pf); reflexivity.
  - intros He. rewrite (spec_module_empty _ _ _ He). auto.
  - apply spec_module_imports.
  - rewrite spec_module_classes, <- (map_id (f_services pf)) at 1. apply Forall2_map, spec_service_shape.
Qed.

Definition agree (e : map_entry) (st : stub_entry) : Prop :=
  e_route e = s_route st /\ e_func e = s_attr st /\ e_req e = s_req st /\ e_rep e = s_rep st /\
  method_cls (e_card e) = Some (s_cls st) /\ class_cardinality (s_cls st) = Some (e_card e).

Lemma spec_service_agree tm pkg s :
  Forall2 agree (as_mapping (spec_service tm pkg s)) (as_stub (spec_service tm pkg s)).
Proof.
  apply Forall2_map. intros m. unfold agree, spec_entry, spec_stub, the_cls, the_card.
  cbn [e_route e_func e_req e_rep e_card s_route s_attr s_req s_rep s_cls].
  destruct (cardinality_tables (me_cs m) (me_ss m)) as [c [cls [-> [_ [Hcls Hcc]]]]].
  cbn [od]. rewrite Hcls. auto 7.
Qed.

Lemma main_classes req mods nm a :
  main req = Ok mods -> In nm mods -> In a (a_classes (snd nm)) ->
  exists pkg s, a = spec_service (types_entries (r_files req)) pkg s.
Proof.
  intros Hmain Hnm Ha. apply main_Ok in Hmain as [Hok ->]. apply in_map_iff in Hnm as [g [<- Hg]].
  destruct (Hok g Hg) as [pf [Hp _]]. unfold spec_file in Ha. rewrite Hp in Ha.
  cbn [snd] in Ha. rewrite spec_module_classes in Ha. apply in_map_iff in Ha as [s [<- _]]. eauto.
Qed.

Lemma route_injective pkg svc m1 m2 : route pkg svc m1 = route pkg svc m2 -> m1 = m2.
Proof. unfold route. intros H. do 3 apply app_inv_head in H. exact H. Qed.

Lemma routes_NoDup pkg svc (ms : list method) :
  NoDup (map me_name ms) -> NoDup (map (fun m => route pkg svc (me_name m)) ms).
Proof.
  intros H. rewrite <- (map_map me_name (route pkg svc)).
  apply Injective_map_NoDup; [exact (route_injective pkg svc) | exact H].
Qed.

Lemma shape_exactly_once pkg s a :
  service_shape pkg s a -> NoDup (map me_name (sv_methods s)) ->
  NoDup (as_abstract a) /\ NoDup (map e_route (as_mapping a)) /\ NoDup (map e_func (as_mapping a)) /\
  NoDup (map s_attr (as_stub a)) /\ NoDup (map s_route (as_stub a)) /\
  length (as_mapping a) = length (sv_methods s) /\ length (as_stub a) = length (sv_methods s).
Proof.
  intros [_ [Ha [Hf [Hs [Hr Hsr]]]]] Hnd. pose proof (routes_NoDup pkg (sv_name s) _ Hnd) as Hroutes.
  rewrite Ha, Hr, Hsr, <- (map_length e_func), <- (map_length s_attr), Hf, Hs, map_length. auto 8.
Qed.

(* nothing overwritten, mangled, reordered or failing: the executed classes are the rendered ones *)
Definition ideal_service (a : aservice) : list (str * eclass) :=
  [ (as_name a ++ base_suffix,
     CBase (EBase (as_abstract a) (Ok (map (fun e => (e_route e, e)) (as_mapping a)))));
    (as_name a ++ stub_suffix,
     CStub (EStub (Ok (map (fun s => (s_attr s, s)) (as_stub a))))) ].
Definition ideal_exec (m : amodule) : list (str * eclass) := flat_map ideal_service (a_classes m).

Definition service_clean (m : amodule) (a : aservice) : Prop :=
  NoDup (as_abstract a) /\ NoDup (map e_route (as_mapping a)) /\ NoDup (map s_attr (as_stub a)) /\
  (forall n, In n (as_abstract a) -> is_private n = false) /\
  (forall e, In e (as_mapping a) ->
     is_private (e_func e) = false /\ evaluable m (e_req e) = true /\ evaluable m (e_rep e) = true) /\
  (forall s, In s (as_stub a) ->
     is_private (s_attr s) = false /\ evaluable m (s_req s) = true /\ evaluable m (s_rep s) = true).

Lemma mangle_plain cls n : is_private n = false -> mangle cls n = n.
Proof. unfold mangle. intros ->. reflexivity. Qed.

Lemma exec_service_clean m a : service_clean m a -> exec_service m a = ideal_service a.
Proof.
  intros [Hna [Hnr [Hns [Hpa [He Hs]]]]]. unfold exec_service, ideal_service. repeat f_equal.
  - rewrite (dict_of_map_id _ (fun n => (n, tt))).
    + rewrite map_map. apply map_id.
    + intros n Hin. rewrite mangle_plain by apply (Hpa n Hin). reflexivity.
    + cbn [fst]. rewrite map_id. exact Hna.
  - rewrite (proj2 (forallb_forall _ _)), (dict_of_map_id _ (fun e => (e_route e, e))); trivial.
    + intros e Hin. rewrite mangle_plain by apply (He e Hin). destruct e; reflexivity.
    + intros e Hin. destruct (He e Hin) as [_ [-> ->]]. reflexivity.
  - rewrite (proj2 (forallb_forall _ _)), (dict_of_map_id _ (fun s => (s_attr s, s))); trivial.
    + intros s Hin. rewrite mangle_plain by apply (Hs s Hin). reflexivity.
    + intros s Hin. destruct (Hs s Hin) as [_ [-> ->]]. reflexivity.
Qed.

Lemma base_ne_stub x y : x ++ base_suffix <> y ++ stub_suffix.
Proof.
  intros H. apply (f_equal (@rev Z)) in H. rewrite !rev_app_distr in H. discriminate.
Qed.

Lemma class_name_service (l : list aservice) x suf :
  suf = base_suffix \/ suf = stub_suffix ->
  In (x ++ suf) (flat_map (fun a => [as_name a ++ base_suffix; as_name a ++ stub_suffix]) l) ->
  In x (map as_name l).
Proof.
  intros Hsuf Hin. apply in_flat_map in Hin as [b [Hb Hin]]. apply in_map_iff. exists b. split; [|exact Hb].
  destruct Hsuf as [->| ->], Hin as [Heq|[Heq|[]]].
  - exact (app_inv_tail _ _ _ Heq).
  - contradiction (base_ne_stub _ _ (eq_sym Heq)).
  - contradiction (base_ne_stub _ _ Heq).
  - exact (app_inv_tail _ _ _ Heq).
Qed.

Lemma class_names_NoDup (l : list aservice) :
  NoDup (map as_name l) ->
  NoDup (flat_map (fun a => [as_name a ++ base_suffix; as_name a ++ stub_suffix]) l).
Proof.
  induction l as [|a l IH]; cbn [map flat_map app]; intros H; [constructor|].
  inversion H as [|? ? Hnot Hl]; subst. constructor; [|constructor; [|exact (IH Hl)]].
  - intros [Heq|Hin]; [exact (base_ne_stub _ _ (eq_sym Heq))|].
    apply Hnot, (class_name_service l _ base_suffix); auto.
  - intros Hin. apply Hnot, (class_name_service l _ stub_suffix); auto.
Qed.

Lemma ideal_keys (l : list aservice) :
  map fst (flat_map ideal_service l) =
  flat_map (fun a => [as_name a ++ base_suffix; as_name a ++ stub_suffix]) l.
Proof. rewrite !flat_map_concat_map, concat_map, map_map. reflexivity. Qed.

Lemma exec_faithful m :
  syntax_ok m = true -> modelled m = true ->
  NoDup (map as_name (a_classes m)) ->
  (forall a, In a (a_classes m) -> service_clean m a) ->
  exec_module m = Ok (ideal_exec m).
Proof.
  intros Hsyn Hmod Hnd Hclean. unfold exec_module, ideal_exec. rewrite Hsyn, Hmod. cbn [negb]. f_equal.
  rewrite !flat_map_concat_map, (map_ext_in _ ideal_service), <- flat_map_concat_map
    by (intros a Ha; apply exec_service_clean, Hclean, Ha).
  apply dict_of_NoDup_id. rewrite ideal_keys. apply class_names_NoDup, Hnd.
Qed.

Lemma top_name_app_dot a b : top_name (a ++ 46 :: b) = top_name a.
Proof.
  unfold top_name. induction a as [|x a IH]; cbn [app split_on]; [reflexivity|].
  destruct (x =? 46); [reflexivity|].
  destruct (split_on 46 (a ++ 46 :: b)), (split_on 46 a); cbn [hd] in *; congruence.
Qed.

Lemma top_name_py_name modname path : top_name (py_name modname path) = top_name modname.
Proof. destruct path; [reflexivity | apply top_name_app_dot]. Qed.

(* t is declared in the file itself or in a file it imports directly *)
Definition resolves_direct (files : list file) (pf : file) (t py : str) : Prop :=
  exists f path, In f files /\ (f_name f = f_name pf \/ In (f_name f) (f_deps pf)) /\
                 declares (f_msgs f) path /\
                 t = proto_name (f_package f) path /\
                 py = py_name (pb2_module_name (f_name f)) path.

Lemma resolves_direct_resolves files pf t py : resolves_direct files pf t py -> resolves files t py.
Proof. intros [f [path [Hf [_ H]]]]. exists f, path. split; [exact Hf | exact H]. Qed.

Lemma direct_evaluable files pf g t :
  unique_types files -> f_services pf <> [] -> f_name pf = g ->
  (exists py, resolves_direct files pf t py) ->
  evaluable (spec_module (types_entries files) pf g) (od [] (lookup_last t (types_entries files))) = true.
Proof.
  intros Hu Hs Hg [py Hr]. rewrite (lookup_complete _ _ _ Hu (resolves_direct_resolves _ _ _ _ Hr)). cbn [od].
  destruct Hr as [f [path [_ [Hdir [_ [_ ->]]]]]]. unfold evaluable, bound_names.
  destruct (spec_module_imports (types_entries files) pf g Hs) as [-> _]. apply mem_str_In.
  rewrite top_name_py_name. apply in_map, in_or_app. right. apply in_map, in_or_app.
  destruct Hdir as [Hn|Hd]; [right; left; congruence | left; exact Hd].
Qed.

Definition definition_clean (files : list file) (pf : file) : Prop :=
  NoDup (map sv_name (f_services pf)) /\
  forall s, In s (f_services pf) ->
    NoDup (map me_name (sv_methods s)) /\
    forall m, In m (sv_methods s) ->
      is_private (me_name m) = false /\
      (exists rq, resolves_direct files pf (me_in m) rq) /\
      (exists rp, resolves_direct files pf (me_out m) rp).

Lemma spec_module_executes files pf g :
  unique_types files -> f_name pf = g -> definition_clean files pf ->
  let am := spec_module (types_entries files) pf g in
  syntax_ok am = true -> modelled am = true -> exec_module am = Ok (ideal_exec am).
Proof.
  intros Hu Hg [Hnd Hsv] am Hsyn Hmod. apply exec_faithful; trivial; unfold am; rewrite spec_module_classes.
  { rewrite map_map. exact Hnd. }
  intros a Ha. apply in_map_iff in Ha as [s [<- Hs]]. destruct (Hsv s Hs) as [Hnm Hm].
  assert (Hne : f_services pf <> []) by (intros E; rewrite E in Hs; contradiction).
  (* per method: its name is public and both its types are bound by the module's imports *)
  assert (Hev : forall m, In m (sv_methods s) -> is_private (me_name m) = false /\
            evaluable am (the_req (types_entries files) m) = true /\
            evaluable am (the_rep (types_entries files) m) = true).
  { intros m Hin. destruct (Hm m Hin) as [Hp [Hrq Hrp]].
    split; [exact Hp|]. split; apply direct_evaluable; assumption. }
  unfold service_clean. cbn [spec_service as_abstract as_mapping as_stub]. rewrite !map_map.
  split; [exact Hnm|]. split; [apply routes_NoDup, Hnm|]. split; [exact Hnm|].
  split; [|split]; intros x Hx; apply in_map_iff in Hx as [m [<- Hin]]; apply (Hev m Hin).
Qed.

Definition all_types_declared (files : list file) (pf : file) : Prop :=
  forall s m, In s (f_services pf) -> In m (sv_methods s) ->
    (exists rq, resolves files (me_in m) rq) /\ (exists rp, resolves files (me_out m) rp).

Lemma file_ok_iff files pf : file_ok (types_entries files) pf <-> all_types_declared files pf.
Proof.
  split; [intros H s m Hs Hm; destruct (H s Hs m Hm) | intros H s Hs m Hm; destruct (H s m Hs Hm)];
    split; apply lookup_not_None; assumption.
Qed.

Lemma gen_ok_iff files g :
  gen_ok (types_entries files) files g <->
  exists pf, get_proto files g = Some pf /\ all_types_declared files pf.
Proof. split; intros [pf [Hp H]]; exists pf; (split; [exact Hp | apply file_ok_iff, H]). Qed.

Lemma main_raises req e :
  main req = Err e ->
  exists g, In g (r_gen req) /\
    ((e = EStopIteration /\ ~ In g (map f_name (r_files req))) \/
     (e = EKeyError /\ exists pf, get_proto (r_files req) g = Some pf /\
                                  ~ all_types_declared (r_files req) pf)).
Proof.
  unfold main. destruct (mapM_decides _ _ _ _ (r_gen req) (gen_file_decides (types_entries (r_files req)) (r_files req)))
    as [[_ ->]|[g [Hg [Hnot ->]]]]; [discriminate|]. intros [= <-].
  exists g. split; [exact Hg|]. rewrite gen_ok_iff in Hnot. unfold gen_exn.
  destruct (get_proto (r_files req) g) as [pf|] eqn:Hp; [right | left]; (split; [reflexivity|]).
  - exists pf. split; [reflexivity|]. intros Hd. apply Hnot. eauto.
  - apply get_proto_None, Hp.
Qed.

(* boolean checkers of the hypotheses, for the examples *)

Fixpoint nodup_strb (l : list str) : bool :=
  match l with [] => true | x :: r => negb (mem_str x r) && nodup_strb r end.

Lemma nodup_strb_sound l : nodup_strb l = true -> NoDup l.
Proof.
  induction l as [|x r IH]; cbn [nodup_strb]; intros H; constructor; apply andb_true_iff in H as [Hx Hr].
  - rewrite <- mem_str_In. destruct (mem_str x r); [discriminate | congruence].
  - apply IH, Hr.
Qed.

Definition unique_typesb (files : list file) : bool := nodup_strb (map fst (types_entries files)).
Lemma unique_typesb_sound files : unique_typesb files = true -> unique_types files.
Proof. apply nodup_strb_sound. Qed.

Definition has_key (t : str) (l : list (str * str)) : bool := mem_str t (map fst l).

Lemma has_key_resolves files t : has_key t (types_entries files) = true -> exists py, resolves files t py.
Proof.
  unfold has_key. intros H. apply mem_str_In, in_map_iff in H as [[k v] [<- Hin]].
  exists v. apply resolves_iff_entry, Hin.
Qed.

(* weaker: declared in ANY file of the request (what protoc guarantees, `import public` included) *)
Definition definition_clean_any (files : list file) (pf : file) : Prop :=
  NoDup (map sv_name (f_services pf)) /\
  forall s, In s (f_services pf) ->
    NoDup (map me_name (sv_methods s)) /\
    forall m, In m (sv_methods s) ->
      is_private (me_name m) = false /\
      (exists rq, resolves files (me_in m) rq) /\ (exists rp, resolves files (me_out m) rp).

Definition definition_clean_anyb (files : list file) (pf : file) : bool :=
  nodup_strb (map sv_name (f_services pf)) &&
  forallb (fun s =>
    nodup_strb (map me_name (sv_methods s)) &&
    forallb (fun m => negb (is_private (me_name m)) &&
                      has_key (me_in m) (types_entries files) && has_key (me_out m) (types_entries files))
            (sv_methods s)) (f_services pf).

Lemma definition_clean_anyb_sound files pf :
  definition_clean_anyb files pf = true -> definition_clean_any files pf.
Proof.
  unfold definition_clean_anyb, definition_clean_any. intros H. apply andb_true_iff in H as [Hsv Hall]. split.
  - apply nodup_strb_sound. exact Hsv.
  - intros s Hs. rewrite forallb_forall in Hall. specialize (Hall s Hs). apply andb_true_iff in Hall as [Hme Hms].
    split; [apply nodup_strb_sound; exact Hme|]. intros m Hm. rewrite forallb_forall in Hms.
    specialize (Hms m Hm). rewrite !andb_true_iff in Hms. destruct Hms as [[Hpub Hin] Hout].
    split; [apply negb_true_iff; exact Hpub|]. split; apply has_key_resolves; assumption.
Qed.

(* "declared in the file itself or a direct dependency" is "declared in any file" of the request cut
   down to those files *)
Definition direct_files (files : list file) (pf : file) : list file :=
  filter (fun f => zlist_eqb (f_name f) (f_name pf) || mem_str (f_name f) (f_deps pf)) files.

Lemma resolves_direct_files files pf t py :
  resolves (direct_files files pf) t py -> resolves_direct files pf t py.
Proof.
  intros [f [path [Hf H]]]. apply filter_In in Hf as [Hf Hb]. exists f, path. split; [exact Hf|].
  split; [|exact H]. apply orb_true_iff in Hb as [Hb|Hb].
  - left. apply zlist_eqb_eq, Hb.
  - right. apply mem_str_In, Hb.
Qed.

Lemma definition_clean_direct files pf :
  definition_clean_any (direct_files files pf) pf -> definition_clean files pf.
Proof.
  intros [Hnd H]. split; [exact Hnd|]. intros s Hs. destruct (H s Hs) as [Hnm Hm]. split; [exact Hnm|].
  intros m Hin. destruct (Hm m Hin) as [Hp [[rq Hrq] [rp Hrp]]].
  split; [exact Hp|]. split; eexists; apply resolves_direct_files; eassumption.
Qed.

Definition names_agree (r : str * (str * str)) : bool :=
  zlist_eqb (pb2_module_name (fst r)) (fst (snd r)) && zlist_eqb (out_file_name (fst r)) (snd (snd r)).
Definition route_agrees (r : (str * (str * str)) * (str * str)) : bool :=
  let want := route (fst (fst r)) (fst (snd (fst r))) (snd (snd (fst r))) in
  zlist_eqb want (fst (snd r)) && zlist_eqb want (snd (snd r)).

Lemma source_probes :
  forallb names_agree names_probe = true /\ forallb route_agrees route_probe = true /\
  Nat.leb 20 (length names_probe) = true /\ Nat.leb 40 (length route_probe) = true /\
  existsb (fun r => negb (nonempty (fst (fst r)))) route_probe = true.
Proof. vm_compute. repeat split; reflexivity. Qed.

Lemma names_probe_In p m o :
  In (p, (m, o)) names_probe -> pb2_module_name p = m /\ out_file_name p = o.
Proof.
  intros Hin. destruct source_probes as [H _]. rewrite forallb_forall in H.
  apply H, andb_true_iff in Hin as [H1 H2]. apply zlist_eqb_eq in H1, H2. auto.
Qed.

Lemma route_probe_In pkg svc m rb rs :
  In ((pkg, (svc, m)), (rb, rs)) route_probe -> route pkg svc m = rb /\ route pkg svc m = rs.
Proof.
  intros Hin. destruct source_probes as [_ [H _]]. rewrite forallb_forall in H.
  apply H, andb_true_iff in Hin as [H1 H2]. apply zlist_eqb_eq in H1, H2. auto.
Qed.
