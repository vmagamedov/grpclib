(* Proofs for Props/C15.v: grpc-timeout encoding / decoding / minimum over repeated headers.
   Python float = Flocq binary64.  The float theorems use the real numbers of the Coq standard
   library (through Flocq), hence depend on its classical axioms -- see Print Assumptions in
   Props/C15.v; nothing is assumed by this development itself. *)
From Coq Require Import String ZArith List Bool Lia ZifyBool Reals Lra.
From Flocq Require Import Core IEEE754.BinarySingleNaN IEEE754.Binary IEEE754.Bits.
Require Import Flocq.Prop.Relative.
From GV Require Import Lib.Str Lib.StrFacts Gen.Facts Model.Timeout.
Import ListNotations.
Open Scope Z_scope.
#[local] Ltac Zify.zify_post_hook ::= Z.div_mod_to_equations.

(* The vocabulary of the statements.  The grammar of the property: 1..8 ASCII digits followed by
   one unit letter *)
Definition unit_letters : list Z := [72; 77; 83; 109; 117; 110].     (* H M S m u n *)
Definition in_grammar (s : list Z) : Prop :=
  exists ds u, s = ds ++ [u] /\ (1 <= length ds <= 8)%nat /\
               Forall (fun c => 48 <= c <= 57) ds /\ In u unit_letters.

(* the scale the gRPC grammar gives each unit letter: (letter, numerator, denominator) *)
Definition grammar_scale : list (Z * (Z * Z)) :=
  [(72, (3600, 1)); (77, (60, 1)); (83, (1, 1));
   (109, (1, 1000)); (117, (1, 1000000)); (110, (1, 1000000000))]%Z.

Open Scope R_scope.
Definition R64 (x : f64) : R := B2R 53 1024 x.
Definition fin (x : f64) : bool := is_finite 53 1024 x.
Definition rnd (x : R) : R := round radix2 (FLT_exp (-1074) 53) ZnearestE x.
Definition q2r (q : Z * Z) : R := IZR (fst q) / IZR (snd q).
Definition finnum (x : pynum) : bool := match x with PyInt _ => true | PyFloat f => fin f end.
Definition Rnum (x : pynum) : R := match x with PyInt z => IZR z | PyFloat f => R64 f end.
Close Scope R_scope.

Lemma pow10_succ k : 0 <= k -> 10 ^ (k + 1) = 10 * 10 ^ k.
Proof. intros. rewrite Z.pow_add_r by lia. lia. Qed.

Lemma parse_dec_app ds c : parse_dec (ds ++ [c]) = parse_dec ds * 10 + (c - 48).
Proof. unfold parse_dec. rewrite fold_left_app. reflexivity. Qed.

Lemma parse_le_digits : forall fuel n,
  0 <= n < 10 ^ Z.of_nat fuel -> parse_dec (rev (map (fun d => 48 + d) (le_digits fuel n))) = n.
Proof.
  induction fuel as [|f IH]; intros n Hn.
  - cbn in *. lia.
  - cbn [le_digits map rev]. rewrite parse_dec_app.
    rewrite Nat2Z.inj_succ, <- Z.add_1_r, pow10_succ in Hn by lia.
    destruct (n / 10 =? 0) eqn:E.
    + change (parse_dec _) with 0. lia.
    + rewrite IH; lia.
Qed.

Lemma le_digits_range : forall fuel n, Forall (fun d => 0 <= d <= 9) (le_digits fuel n).
Proof.
  induction fuel as [|f IH]; intros n; cbn [le_digits]; constructor.
  - lia.
  - destruct (n / 10 =? 0); [constructor | apply IH].
Qed.

Lemma le_digits_len : forall fuel n k,
  0 <= n < 10 ^ k -> 1 <= k -> Z.of_nat (length (le_digits fuel n)) <= k.
Proof.
  induction fuel as [|f IH]; intros n k Hn Hk; cbn [le_digits length]; [lia|].
  destruct (n / 10 =? 0) eqn:E; [cbn; lia|].
  assert (k <> 1) by (intros ->; change (10 ^ 1) with 10 in Hn; lia).
  specialize (IH (n / 10) (k - 1)).
  replace k with ((k - 1) + 1) in Hn by lia. rewrite pow10_succ in Hn by lia. lia.
Qed.

Lemma fuel_enough n : 0 <= n -> n < 10 ^ Z.of_nat (S (Z.to_nat (Z.log2 n))).
Proof.
  intros Hn. destruct (Z.eq_dec n 0) as [->|Hz]; [reflexivity|].
  pose proof (Z.log2_spec n ltac:(lia)) as [_ H]. pose proof (Z.log2_nonneg n).
  rewrite Nat2Z.inj_succ, Z2Nat.id by assumption.
  apply Z.lt_le_trans with (1 := H). apply Z.pow_le_mono_l. lia.
Qed.

Lemma parse_dec_of_nonneg n : 0 <= n -> parse_dec (dec_of_nonneg n) = n.
Proof. intros Hn. apply parse_le_digits. split; [lia|]. apply fuel_enough; lia. Qed.

Lemma dec_of_nonneg_digits n : Forall (fun c => 48 <= c <= 57) (dec_of_nonneg n).
Proof.
  apply Forall_rev, Forall_map. eapply Forall_impl; [|apply le_digits_range].
  cbv beta. lia.
Qed.

Lemma dec_of_nonneg_len n k : 0 <= n < 10 ^ k -> 1 <= k ->
  1 <= Z.of_nat (length (dec_of_nonneg n)) <= k.
Proof.
  intros Hn Hk. unfold dec_of_nonneg. rewrite rev_length, map_length. split.
  - cbn [le_digits length]. lia.
  - apply le_digits_len; assumption.
Qed.

Lemma py_str_int_nonneg n : 0 <= n -> py_str_int n = dec_of_nonneg n.
Proof. intros. unfold py_str_int. destruct (n <? 0) eqn:E; [lia|reflexivity]. Qed.

Lemma split_last_app ds u : split_last (ds ++ [u]) = Some (ds, u).
Proof. unfold split_last. rewrite rev_app_distr. cbn. rewrite rev_involutive. reflexivity. Qed.

Lemma split_last_inv s ds u : split_last s = Some (ds, u) -> s = ds ++ [u].
Proof.
  unfold split_last. destruct (rev s) as [|x r] eqn:E; [discriminate|].
  intros [= <- <-]. rewrite <- (rev_involutive s), E. reflexivity.
Qed.

Lemma unit_chars_src : unit_chars = unit_letters.
Proof. reflexivity. Qed.

Lemma is_unit_iff u : is_unit u = true <-> In u unit_letters.
Proof.
  unfold is_unit. rewrite unit_chars_src, existsb_exists. split.
  - intros [x [Hx E]]. apply Z.eqb_eq in E. subst. exact Hx.
  - intros H. exists u. split; [exact H|apply Z.eqb_refl].
Qed.

Lemma digits_forallb ds : forallb is_digit ds = true <-> Forall (fun c => 48 <= c <= 57) ds.
Proof.
  rewrite forallb_forall, Forall_forall. unfold is_digit, in_range.
  split; intros H x Hx; specialize (H x Hx); lia.
Qed.

Lemma re_match_spec s ds u : timeout_re_match s = Some (ds, u) <->
  s = ds ++ [u] /\ (1 <= length ds <= 8)%nat /\ Forall (fun c => 48 <= c <= 57) ds /\
  In u unit_letters.
Proof.
  rewrite <- digits_forallb, <- is_unit_iff. unfold timeout_re_match. split.
  - destruct (split_last s) as [[ds' u']|] eqn:E; [|discriminate].
    destruct (_ && _) eqn:C; [|discriminate]. intros [= <- <-].
    rewrite !andb_true_iff in C. destruct C as [[[C1 C2] Hd] Hu].
    apply split_last_inv in E. repeat split; try assumption; lia.
  - intros (-> & Hl & Hd & Hu). rewrite split_last_app, Hd, Hu.
    destruct (_ && _) eqn:C; [reflexivity|lia].
Qed.

Lemma re_match_accepts ds u :
  (1 <= length ds <= 8)%nat -> Forall (fun c => 48 <= c <= 57) ds -> In u unit_letters ->
  timeout_re_match (ds ++ [u]) = Some (ds, u).
Proof. intros. apply re_match_spec. auto. Qed.

Lemma parse_dec_bound : forall ds, Forall (fun c => 48 <= c <= 57) ds ->
  0 <= parse_dec ds < 10 ^ Z.of_nat (length ds).
Proof.
  induction ds as [|c ds IH] using rev_ind; intros H.
  - cbn. lia.
  - apply Forall_app in H as [H1 H2]. inversion H2; subst.
    rewrite parse_dec_app, app_length, Nat2Z.inj_add, pow10_succ by lia. specialize (IH H1). lia.
Qed.

Lemma parse_dec_bound8 ds : (1 <= length ds <= 8)%nat -> Forall (fun c => 48 <= c <= 57) ds ->
  0 <= parse_dec ds < 10 ^ 8.
Proof.
  intros Hl Hd. pose proof (parse_dec_bound ds Hd).
  assert (10 ^ Z.of_nat (length ds) <= 10 ^ 8) by (apply Z.pow_le_mono_r; lia). lia.
Qed.

(* the unit table of the source gives these scales; its negative powers of ten are small *)
Lemma grammar_scale_units u a b : In (u, (a, b)) grammar_scale ->
  In u unit_letters /\ exists uv, unit_lookup u units = Some uv /\ unit_q uv = (a, b) /\
                                  forall k, uv = UPow10Neg k -> 1 <= k <= 15.
Proof.
  unfold grammar_scale. cbn [In]. intros H.
  repeat (destruct H as [H|H];
          [injection H as <- <- <-; split; [cbn; tauto|];
           eexists; split; [reflexivity|]; split; [reflexivity|]; intros k [= <-]; lia|]).
  contradiction.
Qed.

Lemma unit_letters_scale u : In u unit_letters -> exists a b, In (u, (a, b)) grammar_scale.
Proof.
  unfold unit_letters, grammar_scale. cbn [In]. intros H.
  repeat (destruct H as [H|H]; [subst; do 2 eexists; tauto|]). contradiction.
Qed.

Lemma grammar_scale_num u a b : In (u, (a, b)) grammar_scale -> 0 < a <= 3600.
Proof.
  unfold grammar_scale. cbn [In]. intros H.
  repeat (destruct H as [[= <- <- <-]|H]; [lia|]). contradiction.
Qed.

Lemma wire_q_grammar ds u a b :
  (1 <= length ds <= 8)%nat -> Forall (fun c => 48 <= c <= 57) ds ->
  In (u, (a, b)) grammar_scale ->
  wire_q (ds ++ [u]) = Some (parse_dec ds * a, b).
Proof.
  intros Hl Hd Hs. apply grammar_scale_units in Hs as (Hu & uv & Hlk & Hq & _).
  unfold wire_q. rewrite re_match_accepts by assumption. rewrite Hlk, Hq. reflexivity.
Qed.

(* what encode_timeout writes: a number below 10^8 and a unit letter *)
Lemma rendered_grammar n u a b : 0 <= n < 10 ^ 8 -> In (u, (a, b)) grammar_scale ->
  in_grammar (dec_of_nonneg n ++ [u]) /\ wire_q (dec_of_nonneg n ++ [u]) = Some (n * a, b).
Proof.
  intros Hn Hu.
  assert (Hl : (1 <= length (dec_of_nonneg n) <= 8)%nat)
    by (pose proof (dec_of_nonneg_len n 8 Hn); lia).
  pose proof (dec_of_nonneg_digits n) as Hd. split.
  - exists (dec_of_nonneg n), u. apply grammar_scale_units in Hu. tauto.
  - rewrite (wire_q_grammar _ _ _ _ Hl Hd Hu), parse_dec_of_nonneg by lia. reflexivity.
Qed.

Open Scope R_scope.

#[local] Instance prec53_ : Prec_gt_0 53 := prec53.
#[local] Instance emax1024_ : Prec_lt_emax 53 1024 := emax1024.

Lemma rnd_le a b : a <= b -> rnd a <= rnd b.
Proof. intros. apply round_le; auto with typeclass_instances. Qed.

Lemma rnd_0 : rnd 0 = 0.
Proof. apply round_0. auto with typeclass_instances. Qed.

Lemma rnd_IZR z : (Z.abs z < 2 ^ 53)%Z -> rnd (IZR z) = IZR z.
Proof.
  intros Hz. apply round_generic; auto with typeclass_instances.
  apply generic_format_FLT. exists (Float radix2 z 0).
  - unfold F2R. simpl. lra.
  - exact Hz.
  - simpl. lia.
Qed.

Lemma format_bpow e : (-1074 <= e)%Z -> generic_format radix2 (FLT_exp (-1074) 53) (bpow radix2 e).
Proof. intros. apply generic_format_bpow. unfold FLT_exp. lia. Qed.

Lemma rnd_bpow e : (-1074 <= e)%Z -> rnd (bpow radix2 e) = bpow radix2 e.
Proof. intros. apply round_generic; auto with typeclass_instances. apply format_bpow; assumption. Qed.

(* a result of magnitude at most 2^e, e < 1024, does not overflow *)
Lemma no_overflow x e : (-1074 <= e < 1024)%Z -> Rabs x <= bpow radix2 e ->
  Rlt_bool (Rabs (round radix2 (SpecFloat.fexp 53 1024) (round_mode mode_NE) x))
           (bpow radix2 1024) = true.
Proof.
  intros He Hx. apply Rlt_bool_true. change (Rabs (rnd x) < bpow radix2 1024).
  apply Rle_lt_trans with (bpow radix2 e); [|apply bpow_lt; lia].
  apply abs_round_le_generic; auto with typeclass_instances. apply format_bpow. lia.
Qed.

Lemma bpow_double e : bpow radix2 (e + 1) = 2 * bpow radix2 e.
Proof. rewrite bpow_plus. simpl. lra. Qed.

(* any exponent below 1024 would do in place of 100 (no_overflow); the products formed by
   encode_timeout and decode_timeout are at most 10^8 *)
Lemma fmul_correct : forall x y : f64,
  fin x = true -> fin y = true ->
  Rabs (R64 x * R64 y) <= bpow radix2 100 ->
  R64 (fmul x y) = rnd (R64 x * R64 y) /\ fin (fmul x y) = true.
Proof.
  intros x y Fx Fy Hb.
  pose proof (Bmult_correct 53 1024 prec53 emax1024 binop_nan_pl64 mode_NE x y) as H.
  cbv zeta in H. rewrite (no_overflow _ 100) in H by (exact Hb || lia).
  destruct H as [H1 [H2 _]]. split; [exact H1|].
  unfold fin, fmul in *. rewrite H2, Fx, Fy. reflexivity.
Qed.

Lemma f_of_Z_exact z : (Z.abs z < 2 ^ 53)%Z ->
  R64 (f_of_Z z) = IZR z /\ fin (f_of_Z z) = true.
Proof.
  intros Hz.
  pose proof (binary_normalize_correct 53 1024 prec53 emax1024 mode_NE z 0 false) as H.
  replace (F2R (Float radix2 z 0)) with (IZR z) in H by (unfold F2R; simpl; lra).
  rewrite (no_overflow _ 53) in H.
  - destruct H as [H1 [H2 _]]. split; [|exact H2]. rewrite <- (rnd_IZR z Hz). exact H1.
  - lia.
  - rewrite <- abs_IZR. apply (IZR_le _ (2 ^ 53)). lia.
Qed.

Lemma float_of_int_small z : (Z.abs z < 2 ^ 53)%Z -> float_of_int z = Ok (f_of_Z z).
Proof.
  intros Hz. destruct (f_of_Z_exact z Hz) as [_ Hf]. unfold float_of_int. fold (fin (f_of_Z z)).
  now rewrite Hf.
Qed.

Lemma Btrunc_R (x : f64) : Btrunc 53 1024 x = Ztrunc (R64 x).
Proof.
  apply eq_IZR. rewrite Btrunc_correct by exact emax1024.
  unfold round, F2R, scaled_mantissa, cexp, FIX_exp. simpl. rewrite !Rmult_1_r. reflexivity.
Qed.

Lemma cmp_float_q_correct (f : f64) num den : (0 < den)%Z -> fin f = true ->
  cmp_float_q f num den = Some (Rcompare (R64 f) (IZR num / IZR den)).
Proof.
  intros Hden Hf.
  assert (Hd : 0 < IZR den) by (apply IZR_lt; exact Hden).
  rewrite <- (Rcompare_mult_r (IZR den)) by exact Hd.
  replace (IZR num / IZR den * IZR den) with (IZR num) by (field; lra).
  destruct f as [s|s|s pl H|s m e H]; try discriminate Hf;
    unfold cmp_float_q, R64, B2R, F2R; cbn [Fnum Fexp]; f_equal.
  - rewrite Rmult_0_l. symmetry. apply (Rcompare_IZR 0 num).
  - destruct (0 <=? e)%Z eqn:E.
    + rewrite <- (IZR_Zpower radix2 e), <- !mult_IZR by lia. symmetry. apply Rcompare_IZR.
    + (* both sides times 2^-e *)
      rewrite <- (Rcompare_mult_r (bpow radix2 (- e))) by apply bpow_gt_0.
      replace (IZR (cond_Zopp s (Z.pos m)) * bpow radix2 e * IZR den * bpow radix2 (- e))
        with (IZR (cond_Zopp s (Z.pos m)) * IZR den)
        by (rewrite bpow_opp; field; apply Rgt_not_eq, bpow_gt_0).
      rewrite <- (IZR_Zpower radix2 (- e)), <- !mult_IZR by lia. symmetry. apply Rcompare_IZR.
Qed.

Lemma Rcompare_is_Lt x y : match Rcompare x y with Lt => true | _ => false end = true <-> x < y.
Proof. destruct (Rcompare_spec x y); split; intros; try discriminate; try lra; reflexivity. Qed.

Lemma Rcompare_is_Gt x y : match Rcompare x y with Gt => true | _ => false end = true <-> y < x.
Proof. destruct (Rcompare_spec x y); split; intros; try discriminate; try lra; reflexivity. Qed.

Lemma py_gt_q_float (f : f64) num den : (0 < den)%Z -> fin f = true ->
  reflect (IZR num / IZR den < R64 f) (py_gt_q (PyFloat f) num den).
Proof.
  intros Hd Hf. apply iff_reflect. unfold py_gt_q. rewrite cmp_float_q_correct by assumption.
  symmetry. apply Rcompare_is_Gt.
Qed.

Lemma R64_between (f : f64) lo hi d : (0 < d)%Z -> fin f = true ->
  cmp_float_q f lo d = Some Gt -> cmp_float_q f hi d = Some Lt ->
  IZR lo / IZR d < R64 f < IZR hi / IZR d.
Proof.
  intros Hd Hf Hlo Hhi. rewrite cmp_float_q_correct in Hlo, Hhi by assumption.
  injection Hlo as Hlo. injection Hhi as Hhi.
  split; [apply Rcompare_Gt_inv|apply Rcompare_Lt_inv]; assumption.
Qed.

Lemma rnd_nonneg p : 0 <= p -> 0 <= rnd p.
Proof. intros Hp. rewrite <- rnd_0. apply rnd_le, Hp. Qed.

Lemma rel_err x : bpow radix2 (-1022) <= Rabs x ->
  exists eps, Rabs eps <= bpow radix2 (-53) /\ rnd x = x * (1 + eps).
Proof.
  intros Hx.
  destruct (relative_error_N_FLT_ex radix2 (-1074) 53 ltac:(lia) (fun z => negb (Z.even z)) x Hx)
    as (eps & He & Hr).
  exists eps. split; [|exact Hr].
  change (Z.opp 53 + 1)%Z with (-53 + 1)%Z in He. rewrite bpow_double in He. lra.
Qed.

Lemma trunc_rnd_upper : forall p : R, 0 < p ->
  IZR (Ztrunc (rnd p)) < p * (1 + bpow radix2 (-52)).
Proof.
  intros p Hp.
  assert (Hr0 : 0 <= rnd p) by (apply rnd_nonneg; lra).
  rewrite Ztrunc_floor by exact Hr0.
  pose proof (Zfloor_lb (rnd p)) as Ht.
  pose proof (bpow_gt_0 radix2 (-53)) as Hd.
  change (-52)%Z with (-53 + 1)%Z. rewrite bpow_double.
  destruct (Rle_lt_dec (bpow radix2 (-1022)) p) as [H|H].
  - destruct (rel_err p) as (eps & He & Hr); [rewrite Rabs_pos_eq; lra|].
    apply Rabs_le_inv in He. apply Rle_lt_trans with (1 := Ht). rewrite Hr. nra.
  - (* p is subnormal: its rounding is below 1 *)
    assert (rnd p <= bpow radix2 (-1022)) by (rewrite <- rnd_bpow by lia; apply rnd_le; lra).
    assert (bpow radix2 (-1022) < 1) by (apply (bpow_lt radix2 _ 0); lia).
    rewrite (Zfloor_imp 0) by (simpl; lra). nra.
Qed.

(* truncation loses less than one unit: if n + 1 <= p then n + 1, being a float, is at most rnd p *)
Lemma trunc_rnd_facts p M : (M < 2 ^ 52)%Z -> 0 <= p <= IZR M ->
  let n := Ztrunc (rnd p) in
  (0 <= n <= M)%Z /\ p - 1 < IZR n /\ (IZR n <= p \/ IZR n - p < p * bpow radix2 (-52)).
Proof.
  intros HM [Hp0 Hp1] n.
  assert (HM0 : (0 <= M)%Z) by (apply le_IZR; lra).
  assert (Hr0 : 0 <= rnd p) by (apply rnd_nonneg; exact Hp0).
  assert (Hr1 : rnd p <= IZR M) by (rewrite <- (rnd_IZR M) by lia; apply rnd_le; exact Hp1).
  assert (Hn : n = Zfloor (rnd p)) by (apply Ztrunc_floor; exact Hr0).
  pose proof (Zfloor_lb (rnd p)) as Hlb. pose proof (Zfloor_ub (rnd p)) as Hub. rewrite <- Hn in *.
  assert (HnM : (0 <= n <= M)%Z).
  { split; [rewrite Hn; apply Zfloor_lub; exact Hr0|apply le_IZR; lra]. }
  split; [exact HnM|]. split.
  - destruct (Rlt_le_dec p (IZR n + 1)) as [H|H]; [lra|exfalso].
    rewrite <- plus_IZR in H. apply rnd_le in H. rewrite rnd_IZR, plus_IZR in H by lia. lra.
  - destruct (Req_dec p 0) as [->|Hnz].
    + left. subst n. rewrite rnd_0, Ztrunc_IZR. lra.
    + right. pose proof (trunc_rnd_upper p ltac:(lra)). fold n in H. lra.
Qed.

(* the chain of the source, unfolded (Gen.Facts is regenerated from the source on every run: a
   changed threshold, unit or exponent makes this lemma -- and with it every theorem -- fail).
   The thresholds are 10 and the doubles the source writes 0.01 and 0.00001: 2e-19 above 1/100,
   8e-22 above 1/100000. *)
Lemma encode_unfold t :
  encode_timeout t =
  if py_gt_q t 10 1 then enc_branch t 83 0
  else if py_gt_q t 5764607523034235 576460752303423488 then enc_branch t 109 3
  else if py_gt_q t 5902958103587057 590295810358705651712 then enc_branch t 117 6
  else enc_branch t 110 9.
Proof. reflexivity. Qed.

Lemma py_int_finite (f : f64) : fin f = true -> py_int (PyFloat f) = Ok (Ztrunc (R64 f)).
Proof.
  intros Hf. rewrite <- Btrunc_R. destruct f; try discriminate Hf; reflexivity.
Qed.

Lemma pow10_small k : (1 <= k <= 15)%Z -> (1 < 10 ^ k < 2 ^ 53)%Z.
Proof.
  intros Hk. split; [apply Z.pow_gt_1; lia|].
  apply Z.le_lt_trans with (10 ^ 15)%Z; [apply Z.pow_le_mono_r; lia|reflexivity].
Qed.

Lemma below_bpow100 x : 0 <= x <= 100000000 -> Rabs x <= bpow radix2 100.
Proof.
  intros Hx. rewrite Rabs_pos_eq by lra. apply Rle_trans with (1 := proj2 Hx).
  change (bpow radix2 100) with (IZR (2 ^ 100)). apply IZR_le. discriminate.
Qed.

Lemma q2r_rendered n b : q2r (n * 1, b)%Z = IZR n / IZR b.
Proof. unfold q2r. cbn [fst snd]. rewrite Z.mul_1_r. reflexivity. Qed.

(* a branch without a product: plain truncation *)
Lemma enc_plain_spec (t : f64) u :
  fin t = true -> In (u, (1, 1)%Z) grammar_scale -> 0 <= R64 t <= 99999999 ->
  exists s q, enc_branch (PyFloat t) u 0 = Ok s /\ in_grammar s /\ wire_q s = Some q /\
              q2r q <= R64 t < q2r q + 1.
Proof.
  intros Ht Hu Hr. unfold enc_branch. cbn [Z.eqb]. rewrite py_int_finite by exact Ht.
  rewrite Ztrunc_floor by lra.
  pose proof (Zfloor_lb (R64 t)). pose proof (Zfloor_ub (R64 t)).
  assert (Hn : (0 <= Zfloor (R64 t) < 10 ^ 8)%Z) by (split; [apply Zfloor_lub|apply lt_IZR]; lra).
  destruct (rendered_grammar _ u 1 1 Hn Hu) as [Hg Hq]. rewrite py_str_int_nonneg by lia.
  do 2 eexists. split; [reflexivity|]. split; [exact Hg|]. split; [exact Hq|].
  rewrite q2r_rendered. lra.
Qed.

(* a branch with the product p = t * 10^k: rounded, then truncated to n; the wire value is n / 10^k *)
Lemma enc_scaled_spec (t : f64) u k :
  fin t = true -> (1 <= k <= 15)%Z -> In (u, (1, 10 ^ k)%Z) grammar_scale ->
  0 <= R64 t * IZR (10 ^ k) <= 99999999 ->
  exists s q, enc_branch (PyFloat t) u k = Ok s /\ in_grammar s /\ wire_q s = Some q /\
              R64 t - 1 / IZR (10 ^ k) < q2r q /\
              (q2r q <= R64 t \/ q2r q - R64 t < R64 t * bpow radix2 (-52)).
Proof.
  intros Ht Hk Hu Hp. pose proof (pow10_small k Hk) as Hs.
  set (P := IZR (10 ^ k)) in *. set (p := R64 t * P) in *.
  destruct (trunc_rnd_facts p 99999999 eq_refl Hp) as (Hn & Hlo & Hup).
  set (n := Ztrunc (rnd p)) in *.
  destruct (rendered_grammar n u 1 _ ltac:(lia) Hu) as [Hg Hq].
  do 2 eexists. split; [|split; [exact Hg|split; [exact Hq|]]].
  - unfold enc_branch, py_mul_pow10. replace (k =? 0)%Z with false by lia.
    destruct (f_of_Z_exact (10 ^ k)) as [Hv Hfin]; [lia|]. rewrite float_of_int_small by lia.
    destruct (fmul_correct t (f_of_Z (10 ^ k)) Ht Hfin) as [Hm Hmf].
    { rewrite Hv. apply below_bpow100. fold P p. lra. }
    rewrite py_int_finite, Hm, Hv by exact Hmf. fold P p n.
    rewrite py_str_int_nonneg by lia. reflexivity.
  - (* everything divided by 10^k *)
    assert (HP : 0 < P) by (apply IZR_lt; lia).
    rewrite q2r_rendered. fold P. unfold Rdiv. set (i := / P).
    assert (Hi : 0 < i) by (apply Rinv_0_lt_compat, HP).
    replace (R64 t) with (p * i) by (unfold p, i; field; lra).
    split; [nra|]. destruct Hup; [left|right]; nra.
Qed.

Lemma enc_float_spec (t : f64) : fin t = true -> 0 <= R64 t <= 99999999 ->
  exists s q,
    encode_timeout (PyFloat t) = Ok s /\ in_grammar s /\ wire_q s = Some q /\
    (9 / 10 * R64 t < q2r q \/ R64 t - q2r q < 1 / 1000000000) /\
    (q2r q <= R64 t \/ q2r q - R64 t < R64 t * bpow radix2 (-52)).
Proof.
  intros Ht Hr. rewrite encode_unfold.
  destruct (py_gt_q_float t 10 1 eq_refl Ht) as [C1|C1].
  { destruct (enc_plain_spec t 83 Ht ltac:(simpl; auto 7) Hr) as (s & q & He & Hg & Hq & Hv).
    exists s, q. repeat split; try assumption; left; lra. }
  destruct (py_gt_q_float t 5764607523034235 576460752303423488 eq_refl Ht) as [C2|C2].
  { destruct (enc_scaled_spec t 109 3 Ht ltac:(lia) ltac:(simpl; auto 7))
      as (s & q & He & Hg & Hq & Hlo & Hup); change (IZR (10 ^ 3)) with 1000 in *; [lra|].
    exists s, q. repeat split; try assumption. left; lra. }
  destruct (py_gt_q_float t 5902958103587057 590295810358705651712 eq_refl Ht) as [C3|C3].
  { destruct (enc_scaled_spec t 117 6 Ht ltac:(lia) ltac:(simpl; auto 7))
      as (s & q & He & Hg & Hq & Hlo & Hup); change (IZR (10 ^ 6)) with 1000000 in *; [lra|].
    exists s, q. repeat split; try assumption. left; lra. }
  destruct (enc_scaled_spec t 110 9 Ht ltac:(lia) ltac:(simpl; auto 7))
    as (s & q & He & Hg & Hq & Hlo & Hup); change (IZR (10 ^ 9)) with 1000000000 in *; [lra|].
  exists s, q. repeat split; try assumption. right; lra.
Qed.

(* a true special case of "never lengthens": above 10 s there is no product, only truncation *)
Lemma enc_float_seconds (t : f64) : fin t = true -> 10 < R64 t <= 99999999 ->
  exists s q, encode_timeout (PyFloat t) = Ok s /\ wire_q s = Some q /\
              q2r q <= R64 t /\ R64 t - q2r q < 1.
Proof.
  intros Ht Hr. rewrite encode_unfold.
  destruct (py_gt_q_float t 10 1 eq_refl Ht) as [_|C1]; [|lra].
  destruct (enc_plain_spec t 83 Ht ltac:(simpl; auto 7) ltac:(lra)) as (s & q & He & _ & Hq & Hv).
  exists s, q. repeat split; try assumption; lra.
Qed.

Lemma enc_branch_int z u k : (0 <= k)%Z ->
  enc_branch (PyInt z) u k = Ok (py_str_int (z * 10 ^ k) ++ [u]).
Proof.
  intros Hk. unfold enc_branch. destruct (k =? 0)%Z eqn:E; [|reflexivity].
  replace k with 0%Z by lia. rewrite Z.mul_1_r. reflexivity.
Qed.

Lemma enc_branch_int_spec z u k :
  (0 <= k)%Z -> (0 <= z * 10 ^ k < 10 ^ 8)%Z -> In (u, (1, 10 ^ k)%Z) grammar_scale ->
  exists s q, enc_branch (PyInt z) u k = Ok s /\ in_grammar s /\ wire_q s = Some q /\
              q2r q = IZR z.
Proof.
  intros Hk Hn Hu. rewrite enc_branch_int, py_str_int_nonneg by lia.
  destruct (rendered_grammar _ u 1 _ Hn Hu) as [Hg Hq].
  do 2 eexists. split; [reflexivity|]. split; [exact Hg|]. split; [exact Hq|].
  rewrite q2r_rendered, mult_IZR. field. apply not_0_IZR. lia.
Qed.

Lemma enc_int_spec z : (0 <= z <= 99999999)%Z ->
  exists s q, encode_timeout (PyInt z) = Ok s /\ in_grammar s /\ wire_q s = Some q /\
              q2r q = IZR z.
Proof.
  intros Hz. rewrite encode_unfold. unfold py_gt_q.
  destruct (10 <? z * 1)%Z eqn:C1; [apply enc_branch_int_spec; [lia|lia|simpl; auto 7]|].
  destruct (5764607523034235 <? z * 576460752303423488)%Z eqn:C2;
    [apply enc_branch_int_spec; [lia|lia|simpl; auto 7]|].
  destruct (5902958103587057 <? z * 590295810358705651712)%Z eqn:C3; [lia|].
  apply enc_branch_int_spec; [lia|lia|simpl; auto 7].
Qed.

(* the literal "never lengthens" is false of the code: t = 0.013 -> '13m' *)
Definition t_0_013 : f64 := b64_of_bits 4578647611560997945.      (* 0x3F8A9FBE76C8B439 *)

Lemma t_0_013_bounds : fin t_0_013 = true /\ 0 < R64 t_0_013 < 13 / 1000.
Proof.
  assert (Hf : fin t_0_013 = true) by (vm_compute; reflexivity). split; [exact Hf|].
  pose proof (R64_between t_0_013 0 13 1000 eq_refl Hf) as H.
  specialize (H ltac:(vm_compute; reflexivity) ltac:(vm_compute; reflexivity)). lra.
Qed.

Lemma never_lengthens_refuted :
  exists t : f64, fin t = true /\ 0 <= R64 t <= 99999999 /\
    exists s q, encode_timeout (PyFloat t) = Ok s /\ wire_q s = Some q /\ R64 t < q2r q.
Proof.
  destruct t_0_013_bounds as [Hf Hr].
  exists t_0_013. split; [exact Hf|]. split; [lra|].
  exists [49; 51; 109]%Z, (13, 1000)%Z.
  split; [vm_compute; reflexivity|]. split; [vm_compute; reflexivity|apply Hr].
Qed.

(* two roundings, each within d = 2^-53 relative, stay within 4 d *)
Lemma two_roundings x d e1 e2 : 0 <= x -> 0 < d <= / 4 -> Rabs e1 <= d -> Rabs e2 <= d ->
  Rabs (x * (1 + e1) * (1 + e2) - x) <= x * (4 * d).
Proof.
  intros Hx Hd He1 He2. apply Rabs_le_inv in He1. apply Rabs_le_inv in He2.
  replace (x * (1 + e1) * (1 + e2) - x) with (x * (e1 + e2 + e1 * e2)) by ring.
  assert (- (3 * d) <= e1 + e2 + e1 * e2 <= 3 * d) by nra.
  apply Rabs_le. nra.
Qed.

(* the float 10 ** -k: the rounding of 1 / 10^k, a normal number *)
Lemma pow10neg_float_correct k : (1 <= k <= 15)%Z ->
  exists e, Rabs e <= bpow radix2 (-53) /\
    R64 (pow10neg_float k) = 1 / IZR (10 ^ k) * (1 + e) /\
    bpow radix2 (-53) <= R64 (pow10neg_float k) <= 1 /\ fin (pow10neg_float k) = true.
Proof.
  intros Hk. pose proof (pow10_small k Hk) as Hs.
  destruct (f_of_Z_exact (10 ^ k) ltac:(lia)) as [Hv Hfin].
  destruct (f_of_Z_exact 1 eq_refl) as [H1 H1f].
  set (P := IZR (10 ^ k)) in *.
  assert (HP : 1 <= P < bpow radix2 53) by (split; [apply IZR_le|apply (IZR_lt _ (2 ^ 53))]; lia).
  assert (Hinv : bpow radix2 (-53) < 1 / P <= 1).
  { unfold Rdiv. rewrite Rmult_1_l, <- Rinv_1. change (-53)%Z with (- (53))%Z. rewrite bpow_opp.
    split; [apply Rinv_lt_contravar|apply Rinv_le_contravar]; try lra.
    apply Rmult_lt_0_compat; [lra|apply bpow_gt_0]. }
  pose proof (bpow_gt_0 radix2 (-53)) as Hd.
  pose proof (Bdiv_correct 53 1024 prec53 emax1024 binop_nan_pl64 mode_NE
                (f_of_Z 1) (f_of_Z (10 ^ k))) as H.
  fold (R64 (f_of_Z (10 ^ k))) (R64 (f_of_Z 1)) in H. rewrite Hv, H1 in H. fold P in H.
  specialize (H ltac:(lra)). rewrite (no_overflow _ 0) in H by (lia || rewrite Rabs_pos_eq; simpl; lra).
  destruct H as [Ha [Hb _]]. change (R64 (pow10neg_float k) = rnd (1 / P)) in Ha.
  destruct (rel_err (1 / P)) as (e & He & Hr).
  { rewrite Rabs_pos_eq by lra. apply Rle_trans with (bpow radix2 (-53)); [apply bpow_le; lia|lra]. }
  exists e. rewrite Ha. split; [exact He|]. split; [exact Hr|]. split.
  - split; [rewrite <- (rnd_bpow (-53)) by lia; apply rnd_le; lra|].
    apply Rle_trans with (rnd 1); [apply rnd_le; lra|apply Req_le, (rnd_IZR 1); reflexivity].
  - unfold fin, pow10neg_float, fdiv. rewrite Hb. exact H1f.
Qed.

(* int(digits) * 10 ** -k as a float: 10 ** -k is rounded, then the product *)
Lemma unit_scale_float N k : (0 <= N < 10 ^ 8)%Z -> (1 <= k <= 15)%Z ->
  exists f, unit_scale N (UPow10Neg k) = Ok (PyFloat f) /\ fin f = true /\
            Rabs (R64 f - IZR N / IZR (10 ^ k)) <= IZR N / IZR (10 ^ k) * bpow radix2 (-51).
Proof.
  intros HN Hk.
  destruct (f_of_Z_exact N) as [Hv Hfin]; [lia|].
  destruct (pow10neg_float_correct k Hk) as (e1 & He1 & Hc & Hcb & Hcf).
  set (c := R64 (pow10neg_float k)) in *. set (d := bpow radix2 (-53)) in *.
  assert (Hd : 0 < d <= / 4) by (split; [apply bpow_gt_0|apply (bpow_le radix2 _ (-2)); lia]).
  assert (HNR : 0 <= IZR N <= 100000000) by (split; apply IZR_le; lia).
  unfold unit_scale. rewrite float_of_int_small by lia.
  destruct (fmul_correct (f_of_Z N) (pow10neg_float k) Hfin Hcf) as [Hm Hmf].
  { rewrite Hv. fold c. apply below_bpow100. nra. }
  eexists. split; [reflexivity|]. split; [exact Hmf|]. rewrite Hm, Hv. fold c.
  destruct (Z.eq_dec N 0) as [->|HN0].
  { rewrite !Rmult_0_l, rnd_0. unfold Rdiv. rewrite !Rmult_0_l, Rminus_0_r, Rabs_R0. lra. }
  assert (HN1 : 1 <= IZR N) by (apply IZR_le; lia).
  destruct (rel_err (IZR N * c)) as (e2 & He2 & Hr2).
  { rewrite Rabs_pos_eq by nra. apply Rle_trans with d; [apply bpow_le; lia|nra]. }
  rewrite Hr2, Hc. change (-51)%Z with (-53 + 1 + 1)%Z. rewrite !bpow_double. fold d.
  assert (HP : 0 < IZR (10 ^ k)) by (apply IZR_lt; pose proof (pow10_small k Hk); lia).
  replace (IZR N * (1 / IZR (10 ^ k) * (1 + e1))) with (IZR N / IZR (10 ^ k) * (1 + e1))
    by (field; lra).
  replace (2 * (2 * d)) with (4 * d) by ring.
  apply two_roundings; try assumption. apply Rmult_le_pos; [lra|]. apply Rlt_le, Rinv_0_lt_compat, HP.
Qed.

Lemma decode_accepts ds u a b :
  (1 <= length ds <= 8)%nat -> Forall (fun c => 48 <= c <= 57)%Z ds ->
  In (u, (a, b)) grammar_scale ->
  let N := parse_dec ds in
  wire_q (ds ++ [u]) = Some (N * a, b)%Z /\
  exists v, decode_timeout (ds ++ [u]) = Ok v /\
    ((b = 1)%Z -> v = PyInt (N * a)) /\
    ((b <> 1)%Z -> exists f, v = PyFloat f /\ fin f = true /\
        Rabs (R64 f - IZR N / IZR b) <= IZR N / IZR b * bpow radix2 (-51)).
Proof.
  intros Hl Hd Hs N. split; [apply wire_q_grammar; assumption|].
  destruct (grammar_scale_units u a b Hs) as (Hu & uv & Hlk & Hq & Hk).
  unfold decode_timeout. rewrite re_match_accepts, Hlk by assumption. fold N.
  pose proof (parse_dec_bound8 ds Hl Hd) as HN. fold N in HN.
  destruct uv as [m|k]; injection Hq as <- <-.
  - exists (PyInt (N * m)). split; [reflexivity|]. split; [reflexivity|]. intros []. reflexivity.
  - specialize (Hk k eq_refl). destruct (unit_scale_float N k HN Hk) as (f & Hf & Hfin & Herr).
    exists (PyFloat f). split; [exact Hf|]. split.
    + pose proof (pow10_small k Hk). lia.
    + intros _. exists f. auto.
Qed.

Lemma decode_grammar_ok s : in_grammar s ->
  exists v, decode_timeout s = Ok v /\ finnum v = true.
Proof.
  intros (ds & u & -> & Hl & Hd & Hu).
  destruct (unit_letters_scale u Hu) as (a & b & Hs).
  destruct (decode_accepts ds u a b Hl Hd Hs) as (_ & v & Hv & H1 & H2).
  exists v. split; [exact Hv|].
  destruct (Z.eq_dec b 1) as [E|E].
  - rewrite (H1 E). reflexivity.
  - destruct (H2 E) as (f & -> & Hf & _). exact Hf.
Qed.

(* the units H M S: an int of at most 99999999 * 3600, on which float(int) is exact *)
Lemma decode_int_bound s z : in_grammar s -> decode_timeout s = Ok (PyInt z) -> (0 <= z < 2 ^ 53)%Z.
Proof.
  intros (ds & u & -> & Hl & Hd & Hu) Hz. pose proof (parse_dec_bound8 ds Hl Hd) as HN.
  destruct (unit_letters_scale u Hu) as (a & b & Hs).
  destruct (decode_accepts ds u a b Hl Hd Hs) as (_ & v & Hv & H1 & H2).
  rewrite Hz in Hv. injection Hv as <-. destruct (Z.eq_dec b 1) as [E|E].
  - injection (H1 E) as ->. pose proof (grammar_scale_num u a b Hs). nia.
  - now destruct (H2 E) as (f & [=] & _).
Qed.

Lemma decode_total s :
  (in_grammar s /\ exists v, decode_timeout s = Ok v /\ finnum v = true) \/
  (~ in_grammar s /\ decode_timeout s = Err ValueError).
Proof.
  destruct (timeout_re_match s) as [[ds u]|] eqn:E.
  - assert (H : in_grammar s) by (exists ds, u; apply re_match_spec, E).
    left. split; [exact H|apply decode_grammar_ok; exact H].
  - right. split.
    + intros (ds & u & H). apply re_match_spec in H. congruence.
    + unfold decode_timeout. rewrite E. reflexivity.
Qed.

Lemma py_lt_correct a b : finnum a = true -> finnum b = true ->
  (py_lt a b = true <-> Rnum a < Rnum b).
Proof.
  assert (Hq : forall z, IZR z / IZR 1 = IZR z) by (intros; field).
  intros Ha Hb. destruct a as [x|f], b as [y|g]; cbn [py_lt Rnum finnum] in *.
  - rewrite Z.ltb_lt. split; [apply IZR_lt|apply lt_IZR].
  - rewrite cmp_float_q_correct, Hq by (assumption || lia). apply Rcompare_is_Gt.
  - rewrite cmp_float_q_correct, Hq by (assumption || lia). apply Rcompare_is_Lt.
  - unfold b64_compare. rewrite Bcompare_correct by assumption. apply Rcompare_is_Lt.
Qed.

Lemma py_min_from_spec : forall l cur,
  finnum cur = true -> Forall (fun x => finnum x = true) l ->
  let m := py_min_from cur l in
  In m (cur :: l) /\ forall x, In x (cur :: l) -> Rnum m <= Rnum x.
Proof.
  induction l as [|y l IH]; intros cur Hc Hl.
  - cbn. split; [auto|]. intros x [<-|[]]. lra.
  - inversion Hl as [|? ? Hy Hl']; subst. cbn [py_min_from].
    (* the smaller of cur and y goes on *)
    set (c := if py_lt y cur then y else cur).
    assert (H : In c [cur; y] /\ finnum c = true /\ Rnum c <= Rnum cur /\ Rnum c <= Rnum y).
    { unfold c. pose proof (py_lt_correct y cur Hy Hc) as E. destruct (py_lt y cur).
      - assert (Rnum y < Rnum cur) by (apply E; reflexivity). cbn. repeat split; auto; lra.
      - assert (Rnum cur <= Rnum y) by (apply Rnot_lt_le; intros H; apply E in H; discriminate).
        cbn. repeat split; auto; lra. }
    destruct H as (Hin & Hfc & Hc1 & Hc2).
    destruct (IH c Hfc Hl') as (Hm & Hmin). cbv zeta. split.
    + destruct Hm as [<-|Hm]; [|right; right; exact Hm]. destruct Hin as [<-|[<-|[]]]; cbn; auto.
    + pose proof (Hmin c (or_introl eq_refl)).
      intros x [<-|[<-|Hx]]; [lra|lra|]. apply Hmin. right. exact Hx.
Qed.

Lemma decode_all_ok vs : Forall in_grammar vs ->
  exists xs, decode_all vs = Ok xs /\ Forall (fun x => finnum x = true) xs /\
             map decode_timeout vs = map Ok xs.
Proof.
  induction 1 as [|v vs Hv _ (xs & Hd & Hf & H2)]; [exists []; auto|].
  destruct (decode_grammar_ok v Hv) as (x & Hx & Hfx).
  exists (x :: xs). cbn [decode_all map]. rewrite Hx, Hd, H2. auto.
Qed.

Lemma decode_all_err vs : Exists (fun v => ~ in_grammar v) vs -> decode_all vs = Err ValueError.
Proof.
  induction 1 as [v vs Hv|v vs _ IH]; cbn [decode_all];
    destruct (decode_total v) as [(Hg & x & -> & _)|(_ & ->)]; try reflexivity.
  - contradiction.
  - rewrite IH. reflexivity.
Qed.

(* Deadline.from_headers: None without a grpc-timeout header, ValueError if any value is outside
   the grammar, otherwise the smallest of the decoded values *)
Lemma from_headers_min hs :
  let vs := timeout_values hs in
  (vs = [] -> from_headers_timeout hs = Ok None) /\
  (Exists (fun v => ~ in_grammar v) vs -> from_headers_timeout hs = Err ValueError) /\
  (vs <> [] -> Forall in_grammar vs ->
   exists m, from_headers_timeout hs = Ok (Some m) /\
             (exists v, In v vs /\ decode_timeout v = Ok m) /\
             (forall v x, In v vs -> decode_timeout v = Ok x -> Rnum m <= Rnum x)).
Proof.
  intros vs. unfold from_headers_timeout. fold vs. split; [intros ->; reflexivity|]. split.
  - intros Hex. rewrite (decode_all_err vs Hex). reflexivity.
  - intros Hne Hall. destruct (decode_all_ok vs Hall) as (xs & -> & Hf & H2).
    destruct xs as [|x0 xs]; [destruct vs; [congruence|discriminate]|].
    inversion Hf as [|? ? Hf0 Hf']; subst.
    destruct (py_min_from_spec xs x0 Hf0 Hf') as (Hin & Hmin).
    assert (Hdec : forall x, In x (x0 :: xs) <-> exists v, In v vs /\ decode_timeout v = Ok x).
    { intros x. transitivity (In (Ok x : res py_err pynum) (map Ok (x0 :: xs))).
      - rewrite in_map_iff. split; [eauto|]. intros (x' & [= ->] & H). exact H.
      - rewrite <- H2, in_map_iff. split; intros (v & A & B); eauto. }
    exists (py_min_from x0 xs). split; [reflexivity|]. split; [apply Hdec, Hin|].
    intros v x Hv Hx. apply Hmin, Hdec. eauto.
Qed.

Lemma timeout_values_spec hs v :
  In v (timeout_values hs) <-> In (grpc_timeout_name, v) hs.
Proof.
  unfold timeout_values. rewrite in_map_iff. split.
  - intros ([k v'] & <- & H). apply filter_In in H as [H1 H2]. cbn in H2.
    apply zlist_eqb_eq in H2. subst. exact H1.
  - intros H. exists (grpc_timeout_name, v). split; [reflexivity|].
    apply filter_In. split; [exact H|]. cbn [fst]. apply zlist_eqb_refl.
Qed.

Lemma decode_of_encode_int z : (0 <= z <= 99999999)%Z ->
  exists s v, encode_timeout (PyInt z) = Ok s /\ in_grammar s /\
              decode_timeout s = Ok v /\ finnum v = true.
Proof.
  intros Hz. destruct (enc_int_spec z Hz) as (s & q & He & Hg & _).
  destruct (decode_grammar_ok s Hg) as (v & Hv & Hf). exists s, v. auto.
Qed.
