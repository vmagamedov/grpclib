(* C05 -- the grpc-timeout value a client puts on the wire.  Reuses the float model and the bounds
   of C15 (Proofs/C15Proofs.v), hence the standard-library real-number axioms Flocq needs. *)
From Coq Require Import ZArith List Bool Lia Reals Lra.
From Flocq Require Import Core IEEE754.BinarySingleNaN IEEE754.Binary IEEE754.Bits.
From GV Require Import Lib.Str Gen.Facts Gen.StreamOps Model.StreamIR Model.StreamSem Model.Timeout
     Model.Deadline Proofs.C15Proofs Proofs.C05Proofs.
Import ListNotations.
Open Scope Z_scope.

(* ticks -> float is exact for every tick count below 2^53 (about 97 days) *)
Lemma f64_of_ticks_exact k : (Z.abs k < 2 ^ 53)%Z ->
  R64 (f64_of_ticks k) = (IZR k * bpow radix2 (-30))%R /\ fin (f64_of_ticks k) = true.
Proof.
  intros Hz.
  pose proof (binary_normalize_correct 53 1024 prec53 emax1024 mode_NE k (-30) false) as H.
  assert (HF : F2R (Float radix2 k (-30)) = (IZR k * bpow radix2 (-30))%R) by reflexivity.
  rewrite HF in H.
  assert (Hr : round radix2 (SpecFloat.fexp 53 1024) (round_mode mode_NE)
                     (IZR k * bpow radix2 (-30)) = (IZR k * bpow radix2 (-30))%R).
  { apply round_generic; auto with typeclass_instances.
    apply generic_format_FLT. exists (Float radix2 k (-30)).
    - reflexivity.
    - simpl. exact Hz.
    - vm_compute. discriminate. }
  rewrite Hr in H.
  rewrite Rlt_bool_true in H.
  - destruct H as [H1 [H2 _]]. split; [exact H1|exact H2].
  - rewrite Rabs_mult. rewrite (Rabs_pos_eq (bpow radix2 (-30))); [|apply bpow_ge_0].
    rewrite <- abs_IZR.
    apply Rlt_le_trans with (IZR (2 ^ 53) * bpow radix2 (-30))%R.
    + apply Rmult_lt_compat_r; [apply bpow_gt_0|]. apply IZR_lt. exact Hz.
    + change (IZR (2 ^ 53)) with (bpow radix2 53). rewrite <- bpow_plus. apply bpow_le. lia.
Qed.

Definition secs (ticks : Z) : R := (IZR ticks * bpow radix2 (-30))%R.

Lemma secs_bound r : (0 < r < 2 ^ 53)%Z -> (0 < secs r <= 99999999)%R.
Proof.
  intros [H1 H2]. unfold secs. split.
  - apply Rmult_lt_0_compat; [apply IZR_lt; lia|apply bpow_gt_0].
  - apply Rle_trans with (IZR (2 ^ 53) * bpow radix2 (-30))%R.
    + apply Rmult_le_compat_r; [apply bpow_ge_0|]. apply IZR_le. lia.
    + change (IZR (2 ^ 53)) with (bpow radix2 53). rewrite <- bpow_plus.
      change (53 + -30)%Z with 23%Z. change (bpow radix2 23) with (IZR (2 ^ 23)).
      apply IZR_le. vm_compute. discriminate.
Qed.

(* the header string computed from `rem` ticks of remaining time: spec-valid, and its value is at
   most the remaining time, up to the rounding of C15's one float product (class D14) *)
Lemma header_value_bound rem : (rem < 2 ^ 53)%Z ->
  exists s q, hdr_string rem = Ok s /\ in_grammar s /\ wire_q s = Some q /\
    (q2r q <= secs (Z.max 0 rem) \/
     q2r q - secs (Z.max 0 rem) < secs (Z.max 0 rem) * bpow radix2 (-52))%R.
Proof.
  intro Hlt. unfold hdr_string, hdr_num. destruct (rem <=? 0) eqn:E.
  - destruct (enc_int_spec 0 ltac:(lia)) as (s & q & H1 & H2 & H3 & H4).
    exists s, q. repeat split; try assumption. left.
    replace (Z.max 0 rem) with 0%Z by lia. unfold secs. rewrite H4. lra.
  - assert (Hr : (0 < rem < 2 ^ 53)%Z) by lia.
    destruct (f64_of_ticks_exact rem ltac:(lia)) as [HR HF].
    destruct (secs_bound rem Hr) as [Hs1 Hs2].
    destruct (enc_float_spec (f64_of_ticks rem) HF) as (s & q & H1 & H2 & H3 & _ & H5).
    { rewrite HR. fold (secs rem). lra. }
    exists s, q. repeat split; try assumption.
    replace (Z.max 0 rem) with rem by lia. rewrite HR in H5. exact H5.
Qed.

Lemma wire_value_bound n0 dl ops :
  forallb op_ok ops = true ->
  let s := run ops (init n0 dl) in
  forall a c r, In (a, Some (c, r)) (wire s) -> (r < 2 ^ 53)%Z ->
    exists D str q, dl = Some D /\ c <= a /\ r = Z.max 0 (D - c) /\
      hdr_string r = Ok str /\ in_grammar str /\ wire_q str = Some q /\
      (q2r q <= secs r \/ q2r q - secs r < secs r * bpow radix2 (-52))%R.
Proof.
  intros Hok s a c r Hin Hr.
  (* the invariant: the header was computed at an instant c no later than the send instant a, from
     the time remaining at c *)
  pose proof (g_wire _ (sched_GI n0 dl ops Hok)) as HW. rewrite Forall_forall in HW.
  destruct (HW _ Hin) as [_ (Hca & D & HD & Hrr)]. rewrite sched_deadline in HD.
  destruct (header_value_bound r Hr) as (str & q & H1 & H2 & H3 & H4).
  exists D, str, q. repeat split; try assumption.
  replace (Z.max 0 r) with r in H4 by lia. exact H4.
Qed.

(* D8: the value on the wire can exceed the time remaining when the HEADERS are sent *)
Definition d8_cx : pctx :=
  {| x_cs := true; x_end := false; x_deadline := true; x_has_gs := false; x_got_msg := false;
     x_status_err := false |}.
Definition S30 : Z := 2 ^ 30.
Definition d8_ops : list op :=
  scenario_ops 40 [(WSendRequest, Some (6 * S30))] (100 * S30) 0 (Some (10 * S30))
               [{| s_path := cpath client_ops OpSendRequest d8_cx no_flags; s_fd := false |}].

Lemma wire_value_at_send_refuted :
  exists ops D,
    forallb op_ok ops = true /\ forallb no_ext ops = true /\
    let s := run ops (init 0 (Some D)) in
    exists a c r str q,
      In (a, Some (c, r)) (wire s) /\ hdr_string r = Ok str /\ wire_q str = Some q /\
      exceeds q (D - a) = true /\
      (* concretely: computed at 0 with 10 s left, sent at 6 s with 4 s left, '10000m' *)
      a = 6 * S30 /\ c = 0 /\ r = 10 * S30 /\ str = [49; 48; 48; 48; 48; 109] /\ q = (10000, 1000).
Proof.
  exists d8_ops, (10 * S30).
  split; [vm_compute; reflexivity|]. split; [vm_compute; reflexivity|].
  exists (6 * S30), 0, (10 * S30), [49; 48; 48; 48; 48; 109], (10000, 1000).
  vm_compute. repeat split; auto.
Qed.
