(* Non-vacuity examples for C15: the hypotheses of the theorems are satisfied by concrete,
   non-trivial inputs; the model produces on them what CPython produces; the grammar predicate
   really excludes what the property calls invalid.  Everything is decided by vm_compute (the two
   range examples additionally use the exact-comparison lemma). *)
From Coq Require Import String ZArith List Bool Lia Reals Lra.
From Flocq Require Import Core IEEE754.BinarySingleNaN IEEE754.Binary IEEE754.Bits.
From GV Require Import Lib.Str Gen.Facts Model.Timeout Proofs.C15Proofs.
Import ListNotations.
Open Scope Z_scope.

Definition fl (bits : Z) : pynum := PyFloat (b64_of_bits bits).

(* floats, as struct.pack('>d', x): 2.5, 0.013, 1e-06, 99999999.0, 10.0, 12.9 *)
Example ex_enc_2_5 : encode_timeout (fl 0x4004000000000000) = Ok (s2z "2500m").
Proof. vm_compute; reflexivity. Qed.
Example ex_enc_0_013 : encode_timeout (fl 0x3f8a9fbe76c8b439) = Ok (s2z "13m").
Proof. vm_compute; reflexivity. Qed.
Example ex_enc_1e_6 : encode_timeout (fl 0x3eb0c6f7a0b5ed8d) = Ok (s2z "1000n").   (* pinned test *)
Proof. vm_compute; reflexivity. Qed.
Example ex_enc_max : encode_timeout (fl 0x4197d783fc000000) = Ok (s2z "99999999S").
Proof. vm_compute; reflexivity. Qed.
Example ex_enc_10 : encode_timeout (fl 0x4024000000000000) = Ok (s2z "10000m").
Proof. vm_compute; reflexivity. Qed.
Example ex_enc_12_9 : encode_timeout (fl 0x4029cccccccccccd) = Ok (s2z "12S").
Proof. vm_compute; reflexivity. Qed.
Example ex_enc_zero : encode_timeout (fl 0) = Ok (s2z "0n").
Proof. vm_compute; reflexivity. Qed.
Example ex_enc_neg_zero : encode_timeout (fl 0x8000000000000000) = Ok (s2z "0n").
Proof. vm_compute; reflexivity. Qed.
Example ex_enc_denormal : encode_timeout (fl 1) = Ok (s2z "0n").
Proof. vm_compute; reflexivity. Qed.
(* outside the domain of the property: the error branches of the total model *)
Example ex_enc_nan : encode_timeout (fl 0x7ff8000000000000) = Err ValueError.
Proof. vm_compute; reflexivity. Qed.
Example ex_enc_inf : encode_timeout (fl 0x7ff0000000000000) = Err OverflowError.
Proof. vm_compute; reflexivity. Qed.
Example ex_enc_negative : encode_timeout (fl 0xc014000000000000) = Ok (s2z "-5000000000n").
Proof. vm_compute; reflexivity. Qed.
(* ints *)
Example ex_enc_int_5 : encode_timeout (PyInt 5) = Ok (s2z "5000m").
Proof. vm_compute; reflexivity. Qed.
Example ex_enc_int_11 : encode_timeout (PyInt 11) = Ok (s2z "11S").
Proof. vm_compute; reflexivity. Qed.
Example ex_enc_int_0 : encode_timeout (PyInt 0) = Ok (s2z "0n").
Proof. vm_compute; reflexivity. Qed.

(* the hypotheses "finite and in [0, 99999999]" hold of 0.013 and of 2.5 *)
Example ex_range_0_013 :
  fin t_0_013 = true /\ (0 <= R64 t_0_013 <= 99999999)%R.
Proof. destruct t_0_013_bounds as [Hf Hr]. split; [exact Hf|lra]. Qed.
Example ex_range_12_9 :
  let t := b64_of_bits 0x4029cccccccccccd in fin t = true /\ (10 < R64 t <= 99999999)%R.
Proof.
  cbv zeta. set (t := b64_of_bits 0x4029cccccccccccd).
  assert (Hf : fin t = true) by (vm_compute; reflexivity).
  pose proof (R64_between t 10 99999999 1 eq_refl Hf) as H.
  specialize (H ltac:(vm_compute; reflexivity) ltac:(vm_compute; reflexivity)).
  split; [exact Hf|lra].
Qed.

(* decoder: values as CPython computes them (13 * 10**-3 = 0x3f8a9fbe76c8b43a, one ulp above 0.013) *)
Example ex_dec_13m :
  match decode_timeout (s2z "13m") with Ok (PyFloat f) => bits_of_b64 f | _ => -1 end
  = 0x3f8a9fbe76c8b43a.
Proof. vm_compute; reflexivity. Qed.
Example ex_dec_2500m :
  match decode_timeout (s2z "2500m") with Ok (PyFloat f) => bits_of_b64 f | _ => -1 end
  = 0x4004000000000000.
Proof. vm_compute; reflexivity. Qed.
Example ex_dec_H : decode_timeout (s2z "13H") = Ok (PyInt 46800).
Proof. vm_compute; reflexivity. Qed.
Example ex_dec_leading_zeros : decode_timeout (s2z "007S") = Ok (PyInt 7).
Proof. vm_compute; reflexivity. Qed.
Example ex_dec_8_digits : decode_timeout (s2z "99999999S") = Ok (PyInt 99999999).
Proof. vm_compute; reflexivity. Qed.
Example ex_wire_q : wire_q (s2z "13m") = Some (13, 1000).
Proof. vm_compute; reflexivity. Qed.

(* the strings of the repaired defect D13 and the other malformed classes are rejected *)
Example ex_dec_rejects :
  map decode_timeout
      [ s2z "5S" ++ [10];             (* trailing newline *)
        s2z "123456789S";             (* nine digits *)
        [1635; 83];                   (* ARABIC-INDIC DIGIT THREE + S *)
        [];                           (* empty *)
        s2z "S"; s2z "5"; s2z "+5S"; s2z "-5S"; s2z "5 S"; s2z " 5S"; s2z "5s"; s2z "5h";
        s2z "5.0S"; s2z "5SS"; s2z "1e3S"; [65297; 83] (* fullwidth digit one *) ]
  = repeat (Err ValueError) 16.
Proof. vm_compute; reflexivity. Qed.

Example ex_grammar : in_grammar (s2z "99999999n").
Proof.
  exists (s2z "99999999"), 110. split; [reflexivity|]. split; [cbn; lia|].
  split; [|cbn; tauto]. cbn. repeat (apply Forall_cons; [lia|]). apply Forall_nil.
Qed.
Example ex_grammar_scale : In (109, (1, 1000)) grammar_scale.
Proof. cbn; tauto. Qed.

(* repeated headers: the smallest governs, other names are ignored, order does not matter *)
Definition ex_headers : list (list Z * list Z) :=
  [ (s2z ":path", s2z "/a/b"); (s2z "grpc-timeout", s2z "2S");
    (s2z "grpc-timeout-x", s2z "1n"); (s2z "grpc-timeout", s2z "250m");
    (s2z "Grpc-Timeout", s2z "1n"); (s2z "grpc-timeout", s2z "1M") ].
Example ex_values : timeout_values ex_headers = [s2z "2S"; s2z "250m"; s2z "1M"].
Proof. vm_compute; reflexivity. Qed.
Example ex_min :
  match from_headers (b64_of_bits 0) ex_headers with
  | Ok (Some d) => bits_of_b64 d | _ => -1 end = 0x3fd0000000000000.          (* 0.0 + 0.25 *)
Proof. vm_compute; reflexivity. Qed.
Example ex_min_none : from_headers (b64_of_bits 0) [(s2z ":path", s2z "/a/b")] = Ok None.
Proof. vm_compute; reflexivity. Qed.
Example ex_min_invalid :
  from_headers (b64_of_bits 0) (ex_headers ++ [(s2z "grpc-timeout", s2z "1s")]) = Err ValueError.
Proof. vm_compute; reflexivity. Qed.
(* an int and an equal float: min keeps the first *)
Example ex_min_tie :
  from_headers_timeout [(s2z "grpc-timeout", s2z "1S"); (s2z "grpc-timeout", s2z "1000m")]
  = Ok (Some (PyInt 1)).
Proof. vm_compute; reflexivity. Qed.
