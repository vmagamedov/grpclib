(* Proofs for Props/C13.v: base64 (grpclib "-bin" values) and metadata round trips. *)
From Coq Require Import String ZArith List Bool Lia ZifyBool.
From GV Require Import Lib.Str Gen.Facts Model.Base64 Model.Metadata.
Import ListNotations.
Open Scope Z_scope.

(* let lia see through / and mod by constants *)
#[local] Ltac Zify.zify_post_hook ::= Z.div_mod_to_equations.

Lemma bytes_ok_cons a l :
  bytes_ok (a :: l) = true -> 0 <= a <= 255 /\ bytes_ok l = true.
Proof.
  unfold bytes_ok. cbn [forallb]. intros Hall.
  apply andb_true_iff in Hall as [Ha Hl]. split; [|exact Hl].
  unfold is_byte, in_range in Ha. lia.
Qed.

(* byte strings three bytes at a time, the way base64 reads them *)
Lemma bytes_ind3 (P : list Z -> Prop) :
  P [] ->
  (forall a, 0 <= a <= 255 -> P [a]) ->
  (forall a b, 0 <= a <= 255 -> 0 <= b <= 255 -> P [a; b]) ->
  (forall a b c r, 0 <= a <= 255 -> 0 <= b <= 255 -> 0 <= c <= 255 -> P r -> P (a :: b :: c :: r)) ->
  forall l, bytes_ok l = true -> P l.
Proof.
  intros Hnil Hone Htwo Hstep.
  fix IH 1. intros [|a [|b [|c r]]] Hok; [exact Hnil|..]; apply bytes_ok_cons in Hok as [Ha Hok].
  - apply Hone, Ha.
  - apply bytes_ok_cons in Hok as [Hb _]. apply Htwo; assumption.
  - apply bytes_ok_cons in Hok as [Hb Hok]. apply bytes_ok_cons in Hok as [Hc Hok].
    apply Hstep; [assumption..|]. apply IH, Hok.
Qed.

(* every property of the 64 alphabet characters can be checked on the five ranges *)
Lemma b64_char_cases v c :
  0 <= v < 64 -> c = b64_char v ->
  65 <= c <= 90 /\ v = c - 65 \/ 97 <= c <= 122 /\ v = c - 71 \/ 48 <= c <= 57 /\ v = c + 4 \/
  c = 43 /\ v = 62 \/ c = 47 /\ v = 63.
Proof.
  intros Hv ->. unfold b64_char.
  destruct (v <? 26) eqn:E26; [lia|].
  destruct (v <? 52) eqn:E52; [lia|].
  destruct (v <? 62) eqn:E62; [lia|].
  destruct (v =? 62) eqn:E62'; lia.
Qed.

(* the tests of [b64_val], in its order: the one that fires gives back [v], and one does *)
Lemma b64_val_char v : 0 <= v < 64 -> b64_val (b64_char v) = Some v.
Proof.
  intros Hv. pose proof (b64_char_cases v _ Hv eq_refl) as Hc. unfold b64_val.
  destruct (in_range 65 90 _) eqn:E1; [|destruct (in_range 97 122 _) eqn:E2; [|destruct (in_range 48 57 _) eqn:E3;
    [|destruct (_ =? 43) eqn:E4; [|destruct (_ =? 47) eqn:E5; [|exfalso]]]]];
    unfold in_range in *; try f_equal; lia.
Qed.

Lemma b64_char_not_pad v : 0 <= v < 64 -> (b64_char v =? PAD) = false.
Proof. intros Hv. pose proof (b64_char_cases v _ Hv eq_refl) as Hc. unfold PAD. lia. Qed.

Lemma b64_char_alphabet v : 0 <= v < 64 -> b64_alphabet (b64_char v) = true.
Proof.
  intros Hv. pose proof (b64_char_cases v _ Hv eq_refl) as Hc. unfold b64_alphabet, in_range. lia.
Qed.

Lemma b64_char_ascii v : 0 <= v < 64 -> in_range 0 127 (b64_char v) = true.
Proof.
  intros Hv. pose proof (b64_char_cases v _ Hv eq_refl) as Hc. unfold in_range. lia.
Qed.

(* [encode_bin_value] written out: the encoder without its pads *)
Fixpoint b64encode_nopad (l : list Z) : list Z :=
  match l with
  | [] => []
  | [a] => [b64_char (a / 4); b64_char ((a mod 4) * 16)]
  | [a; b] => [b64_char (a / 4); b64_char ((a mod 4) * 16 + b / 16); b64_char ((b mod 16) * 4)]
  | a :: b :: c :: r =>
      b64_char (a / 4) :: b64_char ((a mod 4) * 16 + b / 16)
      :: b64_char ((b mod 16) * 4 + c / 64) :: b64_char (c mod 64) :: b64encode_nopad r
  end.

Lemma rstrip_pad_cons_nonpad x l :
  (x =? PAD) = false -> rstrip_pad (x :: l) = x :: rstrip_pad l.
Proof.
  intros Hx. cbn [rstrip_pad]. destruct (rstrip_pad l); [rewrite Hx|]; reflexivity.
Qed.

Lemma encode_bin_value_nopad : forall l, bytes_ok l = true -> encode_bin_value l = b64encode_nopad l.
Proof.
  apply bytes_ind3; unfold encode_bin_value;
    [reflexivity | intros a Ha | intros a b Ha Hb | intros a b c r Ha Hb Hc IH];
    cbn [b64encode b64encode_nopad]; rewrite !rstrip_pad_cons_nonpad by (apply b64_char_not_pad; lia).
  - reflexivity.
  - reflexivity.
  - rewrite IH. reflexivity.
Qed.

(* any per-character property of the alphabet holds of the whole encoding *)
Lemma encode_bin_value_forallb (P : Z -> bool) :
  (forall v, 0 <= v < 64 -> P (b64_char v) = true) ->
  forall l, bytes_ok l = true -> forallb P (encode_bin_value l) = true.
Proof.
  intros HP l Hok. rewrite encode_bin_value_nopad by exact Hok. revert l Hok.
  apply bytes_ind3; [reflexivity | intros a Ha | intros a b Ha Hb | intros a b c r Ha Hb Hc IH];
    cbn [b64encode_nopad forallb]; rewrite !HP by lia.
  - reflexivity.
  - reflexivity.
  - exact IH.
Qed.

Lemma encode_bin_value_alphabet b :
  bytes_ok b = true -> forallb b64_alphabet (encode_bin_value b) = true.
Proof. exact (encode_bin_value_forallb _ b64_char_alphabet b). Qed.

Lemma encode_bin_value_ascii b :
  bytes_ok b = true -> ascii_ok (encode_bin_value b) = true.
Proof. exact (encode_bin_value_forallb _ b64_char_ascii b). Qed.

(* on a character of the alphabet: not the pad, not skipped *)
Lemma a2b_char v r qp lc pads out :
  0 <= v < 64 ->
  a2b (b64_char v :: r) qp lc pads out =
  if qp =? 0 then a2b r 1 v 0 out
  else if qp =? 1 then a2b r 2 (v mod 16) 0 ((lc * 4 + v / 16) :: out)
  else if qp =? 2 then a2b r 3 (v mod 4) 0 ((lc * 16 + v / 4) :: out)
  else a2b r 0 0 0 ((lc * 64 + v) :: out).
Proof.
  intros Hv. cbn [a2b]. rewrite (b64_char_not_pad v Hv), (b64_val_char v Hv). reflexivity.
Qed.

(* two data characters then "==" ; three data characters then "=" (anything may follow) *)
Lemma a2b_pad2 r lc out : a2b (PAD :: PAD :: r) 2 lc 0 out = Some (rev out).
Proof. reflexivity. Qed.

Lemma a2b_pad3 r lc out : a2b (PAD :: r) 3 lc 0 out = Some (rev out).
Proof. reflexivity. Qed.

(* between quads pads are passed over *)
Lemma a2b_pads n out : a2b (repeat PAD n) 0 0 0 out = Some (rev out).
Proof. induction n as [|n IH]; [reflexivity | exact IH]. Qed.

(* the decoder inverts the padded encoder whatever number n of further pads follows.  [decode_bin_value]
   always appends some ([repad]): to a value that was sent padded, and to grpclib's own unpadded values,
   where they come out as the encoder's pads and n more ([repad_nopad]) *)
Lemma a2b_b64encode : forall l, bytes_ok l = true ->
  forall n out, a2b (b64encode l ++ repeat PAD n) 0 0 0 out = Some (rev out ++ l).
Proof.
  refine (bytes_ind3 _ _ _ _ _).
  - intros n out. rewrite app_nil_r. apply a2b_pads.
  - intros a Ha n out. cbn [b64encode app].
    do 2 (rewrite a2b_char by lia; cbn [Z.eqb Pos.eqb]). rewrite a2b_pad2. cbn [rev].
    repeat f_equal. lia.
  - intros a b Ha Hb n out. cbn [b64encode app].
    do 3 (rewrite a2b_char by lia; cbn [Z.eqb Pos.eqb]). rewrite a2b_pad3. cbn [rev].
    rewrite <- app_assoc. cbn [app]. repeat f_equal; lia.
  - (* a whole quad gives its three bytes and returns to the initial state *)
    intros a b c r Ha Hb Hc IH n out. cbn [b64encode app].
    do 4 (rewrite a2b_char by lia; cbn [Z.eqb Pos.eqb]). rewrite IH. cbn [rev].
    rewrite <- !app_assoc. cbn [app]. repeat f_equal; lia.
Qed.

Lemma repad_quad x0 x1 x2 x3 l :
  repad (x0 :: x1 :: x2 :: x3 :: l) = x0 :: x1 :: x2 :: x3 :: repad l.
Proof.
  unfold repad. cbn [List.length app].
  replace (S (S (S (S (List.length l))))) with (List.length l + 1 * 4)%nat by lia.
  rewrite Nat.mod_add by lia. reflexivity.
Qed.

(* grpclib pads with len(v) % 4 signs: after two characters two, after three three, where one would do;
   the decoder stops at the first that suffices *)
Lemma repad_nopad : forall l, bytes_ok l = true ->
  exists n, repad (b64encode_nopad l) = b64encode l ++ repeat PAD n.
Proof.
  apply bytes_ind3.
  - exists 0%nat. reflexivity.
  - intros a _. exists 0%nat. reflexivity.
  - intros a b _ _. exists 2%nat. reflexivity.
  - intros a b c r _ _ _ [n IH]. exists n. cbn [b64encode_nopad b64encode app].
    rewrite repad_quad, IH. reflexivity.
Qed.

Lemma b64_roundtrip :
  forall b, bytes_ok b = true -> decode_bin_value (encode_bin_value b) = Some b.
Proof.
  intros b Hok. unfold decode_bin_value, b64decode. rewrite encode_bin_value_nopad by exact Hok.
  destruct (repad_nopad b Hok) as [n ->]. exact (a2b_b64encode b Hok n []).
Qed.

Definition enc_item (k : list Z) (v : mval) : res enc_err (list Z * list Z) :=
  if is_bin_key k then
    match v with
    | VBytes b => Ok (k, encode_bin_value b)
    | _ => Err ETypeError
    end
  else
    match v with
    | VStr s => if value_re_fullmatch s then Ok (k, s) else Err EValueError
    | _ => Err ETypeError
    end.

Lemma encode_metadata_cons k v r :
  encode_metadata ((k, v) :: r) =
  if enc_key_bad k then Err EValueError
  else match enc_item k v with
       | Err e => Err e
       | Ok h => match encode_metadata r with
                 | Ok hs => Ok (h :: hs)
                 | Err e => Err e
                 end
       end.
Proof. reflexivity. Qed.

Definition dec_item (k v : list Z) : res dec_err (list Z * mval) :=
  if is_bin_key k then
    if ascii_ok v then
      match decode_bin_value v with
      | Some b => Ok (k, VBytes b)
      | None => Err DBinascii
      end
    else Err DUnicode
  else Ok (k, VStr v).

(* [dec_skip], the decoder's test, is [reserved] *)
Lemma decode_metadata_cons k v r :
  decode_metadata ((k, v) :: r) =
  if reserved k then decode_metadata r
  else match dec_item k v with
       | Err e => Err e
       | Ok m => match decode_metadata r with
                 | Ok ms => Ok (m :: ms)
                 | Err e => Err e
                 end
       end.
Proof. reflexivity. Qed.

Lemma md_valid_cons kv r : md_valid (kv :: r) = item_valid kv && md_valid r.
Proof. reflexivity. Qed.

Lemma md_typed_cons k v r :
  md_typed ((k, v) :: r) = (match v with VBytes b => bytes_ok b | _ => true end) && md_typed r.
Proof. reflexivity. Qed.

(* a key accepted by _KEY_RE cannot start with ':' *)
Lemma key_re_no_colon k : key_re_fullmatch k = true -> starts_with [58] k = false.
Proof.
  destruct k as [|c k']; intros Hre; [reflexivity|].
  unfold key_re_fullmatch in Hre. cbn [forallb] in Hre.
  apply andb_true_iff in Hre as [Hc _].
  cbn [starts_with]. unfold key_char, in_range in Hc.
  destruct (58 =? c) eqn:E; [|reflexivity]. lia.
Qed.

(* so the encoder's key test is the specification's *)
Lemma enc_key_bad_eq k : enc_key_bad k = negb (key_re_fullmatch k && negb (reserved k)).
Proof.
  unfold enc_key_bad, reserved.
  destruct (key_re_fullmatch k) eqn:Hre; [rewrite (key_re_no_colon k Hre)|];
    destruct (mem_str k special), (starts_with grpc_prefix k); reflexivity.
Qed.

(* a valid item passes the encoder, and its header decodes to it *)
Lemma item_roundtrip k v :
  item_valid (k, v) = true ->
  exists w, enc_key_bad k = false /\ enc_item k v = Ok (k, w) /\
            reserved k = false /\ dec_item k w = Ok (k, v).
Proof.
  unfold item_valid, enc_item, dec_item. rewrite enc_key_bad_eq. intros Hitem.
  apply andb_true_iff in Hitem as [Hkey Hval]. rewrite Hkey.
  apply andb_true_iff in Hkey as [_ Hres]. apply negb_true_iff in Hres.
  destruct (is_bin_key k), v as [s|b|]; try discriminate Hval.
  - exists (encode_bin_value b).
    rewrite (encode_bin_value_ascii b Hval), (b64_roundtrip b Hval). auto.
  - exists s. rewrite Hval. auto.
Qed.

Lemma metadata_roundtrip :
  forall md, md_valid md = true ->
  exists hs, encode_metadata md = Ok hs /\ decode_metadata hs = Ok md.
Proof.
  induction md as [|[k v] r IH]; intros Hvalid.
  - exists []. split; reflexivity.
  - rewrite md_valid_cons in Hvalid. apply andb_true_iff in Hvalid as [Hitem Hr].
    destruct (IH Hr) as (hs & Henc & Hdec).
    destruct (item_roundtrip k v Hitem) as (w & Hbad & Hei & Hres & Hdi).
    exists ((k, w) :: hs).
    rewrite encode_metadata_cons, Hbad, Hei, Henc, decode_metadata_cons, Hres, Hdi, Hdec.
    split; reflexivity.
Qed.

Lemma decode_skips_reserved proto hs :
  forallb (fun h : list Z * list Z => reserved (fst h)) proto = true ->
  decode_metadata (proto ++ hs) = decode_metadata hs.
Proof.
  induction proto as [|[k v] proto IH]; intros Hproto.
  - reflexivity.
  - cbn [forallb fst] in Hproto. apply andb_true_iff in Hproto as [Hk Hproto].
    cbn [app]. rewrite decode_metadata_cons, Hk. exact (IH Hproto).
Qed.

(* an item that the encoder accepts is valid (given the typing invariant on bytes) and the
   header it produces is wire safe *)
Lemma enc_item_ok k v h :
  enc_key_bad k = false ->
  match v with VBytes b => bytes_ok b | _ => true end = true ->
  enc_item k v = Ok h ->
  item_valid (k, v) = true /\ wire_safe h = true.
Proof.
  rewrite enc_key_bad_eq, negb_false_iff. intros Hkey Htyped Hitem.
  unfold item_valid, enc_item in *.
  destruct (is_bin_key k) eqn:Hbin, v as [s|b|]; try discriminate Hitem.
  - injection Hitem as <-. unfold wire_safe.
    rewrite Hkey, Hbin, Htyped, (encode_bin_value_alphabet b Htyped). split; reflexivity.
  - destruct (value_re_fullmatch s) eqn:Hval; try discriminate Hitem.
    injection Hitem as <-. unfold wire_safe. rewrite Hkey, Hbin, Hval. split; reflexivity.
Qed.

(* under that invariant the encoder accepts only valid metadata, and what it then produces is wire safe *)
Lemma encode_accepts_only_valid :
  forall md hs, md_typed md = true -> encode_metadata md = Ok hs ->
  md_valid md = true /\ forallb wire_safe hs = true.
Proof.
  induction md as [|[k v] r IH]; intros hs Htyped Henc.
  - injection Henc as <-. split; reflexivity.
  - rewrite md_typed_cons in Htyped. apply andb_true_iff in Htyped as [Hv Hr].
    rewrite encode_metadata_cons in Henc.
    destruct (enc_key_bad k) eqn:Hbad; [discriminate Henc|].
    destruct (enc_item k v) as [h|e] eqn:Hitem; [|discriminate Henc].
    destruct (encode_metadata r) as [hs'|e] eqn:Hencr; [|discriminate Henc].
    injection Henc as <-.
    destruct (enc_item_ok k v h Hbad Hv Hitem) as [Hvalid Hsafe].
    destruct (IH hs' Hr eq_refl) as [Hvalidr Hsafer].
    rewrite md_valid_cons. cbn [forallb]. rewrite Hvalid, Hsafe, Hvalidr, Hsafer. split; reflexivity.
Qed.

Lemma encoded_is_wire_safe :
  forall md hs, md_typed md = true -> encode_metadata md = Ok hs -> forallb wire_safe hs = true.
Proof. intros md hs Htyped Henc. exact (proj2 (encode_accepts_only_valid md hs Htyped Henc)). Qed.

Lemma dec_item_key k v m : dec_item k v = Ok m -> fst m = k.
Proof.
  unfold dec_item. intros Hitem.
  destruct (is_bin_key k), (ascii_ok v), (decode_bin_value v); try discriminate Hitem;
    injection Hitem as <-; reflexivity.
Qed.

Lemma decode_hides_protocol_headers :
  forall hs md, decode_metadata hs = Ok md ->
  forallb (fun kv => negb (reserved (fst kv))) md = true.
Proof.
  induction hs as [|[k v] r IH]; intros md Hdec.
  - injection Hdec as <-. reflexivity.
  - rewrite decode_metadata_cons in Hdec.
    destruct (reserved k) eqn:Hres; [exact (IH md Hdec)|].
    destruct (dec_item k v) as [m|e] eqn:Hitem; [|discriminate Hdec].
    destruct (decode_metadata r) as [ms|e] eqn:Hdecr; [|discriminate Hdec].
    injection Hdec as <-.
    cbn [forallb]. rewrite (dec_item_key k v m Hitem), Hres, (IH ms eq_refl). reflexivity.
Qed.

(* the code points below 128 that satisfy a predicate, ascending: the shape in which Gen.Facts states the
   character set of a compiled regular expression *)
Definition chars_of (p : Z -> bool) : list Z := filter p (map Z.of_nat (seq 0 128)).

Lemma in_chars_of (p : Z -> bool) c :
  (p c = true -> 0 <= c < 128) -> (In c (chars_of p) <-> p c = true).
Proof.
  intros Hb; unfold chars_of; rewrite filter_In; split; [tauto|].
  intros Hp; split; [|exact Hp].
  apply in_map_iff; exists (Z.to_nat c); split; [apply Z2Nat.id; apply Hb in Hp; lia|].
  apply in_seq; apply Hb in Hp; lia.
Qed.

Lemma in_key_chars c : In c (chars_of key_char) <-> key_char c = true.
Proof. apply in_chars_of. unfold key_char, in_range. lia. Qed.

Lemma in_value_chars c : In c (chars_of value_char) <-> value_char c = true.
Proof. apply in_chars_of. unfold value_char, in_range. lia. Qed.
