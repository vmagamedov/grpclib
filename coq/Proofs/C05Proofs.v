(* C05 -- lemmas about the client deadline kernel (Model/Deadline.v).  One invariant of EVERY
   schedule (every list of kernel operations whose spawned paths are guarded), proved by induction
   over the schedule; the property theorems read their conclusions off it.  Then the generated
   programs: the path a call takes is one of the syntactic paths of its operation, all of which are
   guarded.  The server side and the wire-value corollaries are in C05ServerProofs.v /
   C05WireProofs.v. *)
From Coq Require Import ZArith List Bool Lia ZifyBool.
From GV Require Import Model.StreamIR Model.StreamSem Model.Timeout Model.Deadline.
Import ListNotations.
Open Scope Z_scope.

Lemma Forall_upd {A} (P : A -> Prop) (f : A -> A) : forall l i,
  Forall P l -> (forall x, nth_error l i = Some x -> P x -> P (f x)) -> Forall P (upd i f l).
Proof.
  induction l as [|a l IH]; intros i HF Hf; [destruct i; constructor|].
  inversion HF as [|? ? Ha Hl]; subst. destruct i as [|j]; cbn; constructor; auto.
Qed.

Lemma nth_error_upd_same {A} (f : A -> A) : forall l i x,
  nth_error l i = Some x -> nth_error (upd i f l) i = Some (f x).
Proof.
  induction l as [|a l IH]; intros i x H; destruct i; try discriminate; cbn in *.
  - now injection H as ->.
  - now apply IH.
Qed.

Lemma existsb_false_Forall {A} (p : A -> bool) l :
  existsb p l = false -> Forall (fun x => p x = false) l.
Proof.
  induction l as [|a l IH]; cbn [existsb]; intro H; constructor.
  - destruct (p a); [discriminate|reflexivity].
  - apply IH. destruct (p a); [discriminate|exact H].
Qed.

Lemma raise_in_cancel_timeout we ins : raise_in we ins KCancelled = KTimeout -> we = Some KTimeout.
Proof. unfold raise_in. destruct ins; [|discriminate]. destruct we; [|discriminate]. now intros ->. Qed.

(* the grpc-timeout header was computed at an instant c <= nw from the time remaining at c *)
Definition hgood (nw : Z) (dl : option Z) (h : hdrval) : Prop :=
  match h with
  | Some (c, r) => c <= nw /\ exists D, dl = Some D /\ r = Z.max 0 (D - c)
  | None => True
  end.

Lemma hgood_mono n n' dl h : n <= n' -> hgood n dl h -> hgood n' dl h.
Proof. unfold hgood. destruct h as [[c r]|]; [|trivial]. intros ? [? ?]. split; [lia|assumption]. Qed.

(* What one scheduling of a task gives: it stops at an await inside the wrapper (and then the
   wrapper has no error) or ends, at once, with the wrapper's error or an exception of its own. *)
Record xres_ok (nw : Z) (dl : option Z) (we : option kexn) (x : xres) : Prop := {
  ok_rest : guarded_from (x_inside x) (x_rest x) = true;
  ok_blocked : x_ts x = Blocked -> x_inside x = true /\ we = None;
  ok_done : forall r a, x_ts x = Done r a -> a = nw /\ x_inside x = false /\
              forall e, r = RRaise e -> we = Some e \/ exists p, e = KProg p;
  ok_stops : forall b, x_ts x <> Ready b;
  ok_hdr : hgood nw dl (x_hdr x);
  ok_wire : Forall (fun e : wireent => fst e = nw /\ hgood nw dl (snd e)) (x_wire x) }.

Lemma xdone_ok nw dl we h r :
  hgood nw dl h -> (forall e, r = RRaise e -> we = Some e \/ exists p, e = KProg p) ->
  xres_ok nw dl we (xdone nw h r).
Proof.
  intros Hh Hr. constructor; cbn; try discriminate; try assumption.
  - reflexivity.
  - intros r0 a [= <- <-]. auto.
  - constructor.
Qed.

(* a guarded path, entered outside the wrapper if the wrapper has an error *)
Lemma exec_ok nw dl we : forall l ins h,
  guarded_from ins l = true -> (we <> None -> ins = false) -> hgood nw dl h ->
  xres_ok nw dl we (exec nw dl we ins h l).
Proof.
  induction l as [|a l IH]; intros ins h Hg Hw Hh; cbn [exec].
  - apply xdone_ok; [exact Hh|discriminate].
  - destruct a; cbn [guarded_from] in Hg.
    1, 2: (* __enter__, __exit__: raise the wrapper's error, or go on *)
      destruct we as [e|]; [apply xdone_ok; [exact Hh|intros ? [= <-]; now left]|];
      apply IH; [exact Hg|intro H; now contradiction H|exact Hh].
    + (* an await: on a guarded path the task is inside, hence the wrapper has no error *)
      apply andb_true_iff in Hg. destruct Hg as [-> Hg].
      constructor; cbn; try discriminate; try assumption; [|constructor].
      intros _. split; [reflexivity|]. destruct we; [|reflexivity]. discriminate Hw. discriminate.
    + apply xdone_ok; [exact Hh|]. intros ? [= <-]. right. exists e. unfold raise_in.
      destruct ins; [|reflexivity]. destruct we; [|reflexivity]. discriminate Hw. discriminate.
    + apply IH; try assumption. destruct dl as [D|]; cbn; [|trivial]. split; [lia|]. exists D. auto.
    + destruct (IH ins h Hg Hw Hh) as [? ? ? ? ? Aw]. constructor; cbn; try assumption.
      constructor; [cbn; auto|exact Aw].
Qed.

(* The call: the timer is armed exactly while the call is inside its context with the deadline ahead
   and has not fired; once it has fired the wrapper carries an error.  Without foreign cancels that
   error is the TimeoutError, set no earlier than the deadline. *)
Record GI (s : state) : Prop := {
  g_armed : forall T, timer s = Some T -> ph s = Entered /\ deadline s = Some T /\ now s <= T;
  g_spent : forall D, ph s = Entered -> deadline s = Some D -> timer s = None ->
              werr s <> None /\ D <= now s;
  g_nodl : deadline s = None -> timer s = None;
  g_before : ph s = NotEntered -> werr s = None /\ timer s = None;
  g_timeout : ext_seen s = false ->
              forall e, werr s = Some e -> e = KTimeout /\ exists D, deadline s = Some D /\ D <= now s;
  g_wire : Forall (fun e : wireent => fst e <= now s /\ hgood (fst e) (deadline s) (snd e)) (wire s) }.

(* the call does not look at its tasks *)
Lemma GI_set_tasks s l : GI s -> GI (set_tasks s l).
Proof. intros []. now constructor. Qed.

Definition on_time (s : state) (t : task) : Prop :=
  forall D, ph s = Entered -> deadline s = Some D -> born t <= D -> now s <= D.

(* A task: ahead of the deadline of a call that is inside its context, unless it was started after
   it; blocked only as a member of a wrapper without error; with a cancellation pending only as a
   member of a wrapper with an error (without foreign cancels: at the deadline itself); finished no
   later than the deadline if started by then (without foreign cancels: with TimeoutError no earlier
   than the deadline). *)
Record TI (s : state) (t : task) : Prop := {
  t_phase : ph s = Entered \/ ph s = Exited;
  t_guarded : guarded_from (inside t) (rest t) = true;
  t_born : born t <= now s;
  t_hdr : hgood (now s) (deadline s) (hdr t);
  t_status : match ts t with
             | Blocked => inside t = true /\ werr s = None /\ on_time s t
             | Ready false => (inside t = true -> werr s = None) /\ on_time s t
             | Ready true => inside t = true /\ werr s <> None /\ on_time s t /\
                             (ext_seen s = false -> deadline s = Some (now s))
             | Done r a => inside t = false /\ born t <= a <= now s /\
                           (forall D, ph s = Entered -> deadline s = Some D -> born t <= D -> a <= D) /\
                           (ext_seen s = false -> r = RRaise KTimeout ->
                            exists D, deadline s = Some D /\ D <= a)
             end }.

Definition Inv (s : state) : Prop := GI s /\ Forall (TI s) (tasks s).

Lemma init_inv n0 dl : Inv (init n0 dl).
Proof. split; constructor; cbn; try discriminate; try reflexivity; [split; reflexivity|constructor]. Qed.

Lemma TI_on_time s t : TI s t -> is_done t = false -> on_time s t.
Proof.
  intros HT. pose proof (t_status _ _ HT) as H. unfold is_done.
  destruct (ts t) as [[|]| |]; try discriminate; intros _; apply H.
Qed.

(* the state changes around a task that does not run: the clock may advance if the task is not
   ready, and past the deadline only when the wrapper has an error *)
Lemma TI_frame s s' t :
  TI s t -> werr s' = werr s -> deadline s' = deadline s -> ext_seen s' = ext_seen s ->
  (ph s' = ph s \/ ph s' = Exited) -> now s <= now s' ->
  (now s < now s' -> is_ready t = false /\
     forall D, ph s = Entered -> deadline s = Some D -> D < now s' -> werr s <> None) ->
  TI s' t.
Proof.
  intros [Hph Hg Hb Hh H] Ew Ed Ee Hp' Hn Hc.
  assert (Hp : ph s' = Entered -> ph s = Entered) by (destruct Hp'; congruence).
  constructor; unfold on_time, is_ready in *; rewrite ?Ew, ?Ed, ?Ee.
  - destruct Hp' as [->| ->]; auto.
  - exact Hg.
  - lia.
  - exact (hgood_mono _ _ _ _ Hn Hh).
  - destruct (ts t) as [b| |r a].
    + (* ready: the clock stands still *)
      assert (E : now s' = now s)
        by (apply Z.le_antisymm; [apply Z.nlt_ge; intro L; now destruct (Hc L)|exact Hn]).
      rewrite E. destruct b; intuition.
    + (* blocked: the wrapper has no error, so the clock has not passed the deadline *)
      destruct H as (Hi & Hw & Ho). repeat split; try assumption. intros D HP HD HB.
      specialize (Ho D (Hp HP) HD HB). apply Z.nlt_ge. intro L.
      destruct Hc as [_ Hc]; [lia|]. exact (Hc D (Hp HP) HD L Hw).
    + destruct H as (Hi & Ha & HD & Hx). repeat split; try assumption; try lia.
      intros D HP. apply HD, Hp, HP.
Qed.

(* Wrapper.cancel(e): members get a cancellation pending, the others are not touched *)
Lemma TI_cancel s s' e t :
  TI s t -> werr s' = Some e -> now s' = now s -> deadline s' = deadline s -> ph s' = ph s ->
  (ext_seen s' = false -> ext_seen s = false /\ deadline s = Some (now s)) ->
  TI s' (cancel_task t).
Proof.
  intros HT Ew En Ed Ep Hx. pose proof (TI_on_time s t HT) as Ho. destruct HT as [Hph Hg Hb Hh H].
  unfold cancel_task, is_done in *.
  destruct (ts t) as [[|]| |r a] eqn:Et;
    [ (* a cancellation is pending already *) pose proof (proj1 H) as Ei
    | (* ready: the cancellation reaches it if it is a member *) destruct (inside t) eqn:Ei
    | (* blocked, hence a member: the cancellation wakes it *) pose proof (proj1 H) as Ei
    | (* finished, hence not a member *) pose proof (proj1 H) as Ei ];
    rewrite ?Ei in *; constructor; unfold on_time in *; cbn [ts rest inside born hdr];
    rewrite ?Ei, ?Et, ?Ew, ?En, ?Ed, ?Ep; intuition (try discriminate).
Qed.

Lemma run_task_ok s t :
  TI s t -> is_ready t = true -> xres_ok (now s) (deadline s) (werr s) (run_task s t).
Proof.
  intros [_ Hg _ Hh H]. unfold is_ready, run_task.
  destruct (ts t) as [[|]| |]; try discriminate; intros _.
  - apply xdone_ok; [exact Hh|]. intros e [= <-]. left. destruct H as (-> & Hw & _).
    unfold raise_in. now destruct (werr s).
  - apply exec_ok; [exact Hg| |exact Hh]. intro Hw. destruct H as [H _].
    destruct (inside t); [|reflexivity]. now contradiction Hw; apply H.
Qed.

Lemma TI_run s t : GI s -> TI s t -> is_ready t = true -> TI s (task_of t (run_task s t)).
Proof.
  intros G HT Hr. destruct (run_task_ok s t HT Hr) as [Xrest Xblocked Xdone Xstops Xhdr _].
  assert (Ho : on_time s t).
  { apply TI_on_time; [exact HT|]. unfold is_ready in Hr. unfold is_done. now destruct (ts t). }
  destruct HT as [Hph _ Hb _ _].
  constructor; cbn [task_of ts rest inside born hdr]; try assumption.
  destruct (x_ts (run_task s t)) as [b| |r a].
  - now contradiction (Xstops b).
  - destruct (Xblocked eq_refl) as [Hi Hw]. repeat split; assumption.
  - destruct (Xdone r a eq_refl) as (-> & Hi & He). split; [exact Hi|]. split; [lia|]. split; [exact Ho|].
    intros Hx ->. destruct (He _ eq_refl) as [Hw|[p [=]]]. exact (proj2 (g_timeout _ G Hx _ Hw)).
Qed.

Lemma TI_wake s t : TI s t -> TI s (wake t).
Proof.
  intros HT. unfold wake. destruct (ts t) eqn:Et; try exact HT.
  destruct HT as [Hph Hg Hb Hh H]. rewrite Et in H. constructor; cbn; intuition.
Qed.

Lemma TI_fresh s p fd : ph s = Entered -> guarded_path p = true ->
  TI s {| ts := Ready false; rest := p; inside := false; born := now s; fdis := fd; hdr := None;
          waiting := None |}.
Proof.
  intros He Hp. constructor; cbn; try assumption; try lia; [now left|].
  split; [discriminate|]. intros D. cbn. lia.
Qed.

(* the clock advances: not past an armed timer, and not while a task is ready *)
Lemma Inv_tick s s' :
  Inv s -> ph s' = ph s -> deadline s' = deadline s -> timer s' = timer s -> werr s' = werr s ->
  ext_seen s' = ext_seen s -> wire s' = wire s -> tasks s' = tasks s ->
  now s <= now s' -> (forall T, timer s = Some T -> now s' <= T) ->
  (now s < now s' -> any_ready s = false) -> Inv s'.
Proof.
  intros [G HT] Ep Ed Et Ew Ee Ewi Etk Hn Hnt Hq.
  split; [constructor|]; rewrite ?Ep, ?Ed, ?Et, ?Ew, ?Ee, ?Ewi, ?Etk.
  - intros T H. destruct (g_armed _ G T H) as (A & B & _). auto.
  - intros D HP HD HN. destruct (g_spent _ G D HP HD HN). split; [assumption|lia].
  - exact (g_nodl _ G).
  - exact (g_before _ G).
  - intros He e Hw. destruct (g_timeout _ G He e Hw) as [-> (D & HD & L)].
    split; [reflexivity|]. exists D. split; [assumption|lia].
  - eapply Forall_impl; [|exact (g_wire _ G)]. intros e [A B]. split; [lia|exact B].
  - rewrite Forall_forall in *. intros t Hin. apply (TI_frame s); auto. intro L. split.
    + specialize (Hq L). apply existsb_false_Forall in Hq. rewrite Forall_forall in Hq. auto.
    + (* the clock passes the deadline only after the timer has fired *)
      intros D HP HD HL. apply (g_spent _ G D HP HD). destruct (timer s) as [T|] eqn:E; [|reflexivity].
      destruct (g_armed _ G T E) as (_ & HT1 & _). specialize (Hnt T eq_refl).
      assert (D = T) by congruence. lia.
Qed.

(* Wrapper.cancel(e) inside the context: by the due timer, which is thereby spent, or by someone else *)
Lemma Inv_cancel s s' e :
  Inv s -> ph s = Entered -> werr s' = Some e -> tasks s' = map cancel_task (tasks s) ->
  ph s' = ph s -> deadline s' = deadline s -> now s' = now s -> wire s' = wire s ->
  (timer s' = timer s \/ timer s' = None /\ forall T, timer s = Some T -> T <= now s) ->
  (ext_seen s' = false -> ext_seen s = false /\ e = KTimeout /\ deadline s = Some (now s)) ->
  Inv s'.
Proof.
  intros [G HT] HP Ew Etk Ep Ed En Ewi Ht Hx.
  split; [constructor|]; rewrite ?Ew, ?Etk, ?Ep, ?Ed, ?En, ?Ewi, ?HP; try discriminate.
  - intros T H. destruct Ht as [Ht|[Ht _]]; [|congruence]. rewrite Ht in H.
    destruct (g_armed _ G T H) as (_ & A & B). auto.
  - intros D _ HD HN. split; [discriminate|]. destruct Ht as [Ht|[_ Ht]].
    + rewrite Ht in HN. apply (g_spent _ G D HP HD HN).
    + destruct (timer s) as [T|] eqn:Et; [|apply (g_spent _ G D HP HD Et)].
      destruct (g_armed _ G T Et) as (_ & HT1 & _). specialize (Ht T eq_refl).
      assert (D = T) by congruence. lia.
  - intro HD. destruct Ht as [->|[-> _]]; [exact (g_nodl _ G HD)|reflexivity].
  - intros He e' [= <-]. destruct (Hx He) as (_ & -> & HD). split; [reflexivity|].
    exists (now s). split; [exact HD|lia].
  - exact (g_wire _ G).
  - apply Forall_map. eapply Forall_impl; [|exact HT]. intros t Ht'.
    apply (TI_cancel s s' e); auto. intro He. destruct (Hx He) as (A & _ & B). auto.
Qed.

Lemma step_inv s o : Inv s -> op_ok o = true -> Inv (step s o).
Proof.
  intros [G HT] Hok.
  (* the tasks the step does not touch *)
  assert (Hrest : forall s', werr s' = werr s -> deadline s' = deadline s ->
            ext_seen s' = ext_seen s -> ph s' = ph s \/ ph s' = Exited -> now s' = now s ->
            Forall (TI s') (tasks s)).
  { intros s' Ew Ed Ee Ep En. eapply Forall_impl; [|exact HT]. intros t Ht.
    apply (TI_frame s); auto; lia. }
  destruct o; cbn [step].
  - (* __aenter__: there is no task yet *)
    destruct (ph s) eqn:Ep; try (split; assumption). destruct (g_before _ G Ep) as [Hw0 _].
    pose proof (g_wire _ G) as Gw.
    assert (Htk : tasks s = []).
    { destruct HT as [|t l Ht _]; [reflexivity|]. destruct (t_phase _ _ Ht); congruence. }
    destruct (deadline s) as [D|] eqn:Ed; [destruct (D <=? now s) eqn:Ec|];
      (split; [constructor|]); cbn; rewrite ?Hw0, ?Htk; try discriminate; try assumption;
      try congruence; try apply Forall_nil.
    + intros _ e [= <-]. split; [reflexivity|]. exists D. split; [reflexivity|lia].
    + intros T [= <-]. repeat split. lia.
  - (* a new operation *)
    destruct (ph s) eqn:Ep; try (split; assumption). split; [exact (GI_set_tasks _ _ G)|].
    apply Forall_app. split; [apply Hrest; auto|].
    constructor; [|constructor]. now apply (TI_fresh (set_tasks s _)).
  - (* a ready task runs to its next await or to its end *)
    destruct (nth_error (tasks s) i) as [t|] eqn:En; [|split; assumption].
    destruct (is_ready t) eqn:Er; [|split; assumption].
    assert (Ht : TI s t) by (rewrite Forall_forall in HT; eapply HT, nth_error_In, En).
    pose proof (ok_wire _ _ _ _ (run_task_ok s t Ht Er)) as Xw.
    pose proof (TI_run s t G Ht Er) as Ht'.
    set (t' := task_of t (run_task s t)) in *. split.
    + assert (Hw : Forall (fun e : wireent => fst e <= now s /\ hgood (fst e) (deadline s) (snd e))
                          (wire s ++ x_wire (run_task s t))).
      { apply Forall_app. split; [exact (g_wire _ G)|]. eapply Forall_impl; [|exact Xw].
        intros e [-> B]. split; [lia|exact B]. }
      (* the end of __aexit__ disarms the timer and leaves the context *)
      destruct G as [? ? ? ? ? _]. constructor; cbn; try assumption;
        destruct (is_done t' && fdis t); try assumption; try discriminate. reflexivity.
    + cbn [tasks]. apply Forall_upd.
      * apply Hrest; auto. cbn. destruct (_ && _); auto.
      * intros x Hx _. rewrite En in Hx. injection Hx as <-.
        apply (TI_frame s); auto; cbn; [destruct (_ && _); auto|lia|lia].
  - (* the environment completes an await *)
    split; [exact (GI_set_tasks _ _ G)|]. cbn [set_tasks tasks]. apply Forall_upd; [apply Hrest; auto|].
    intros x _ Hx. now apply TI_wake.
  - (* time passes; then the timer, if due, fires *)
    set (n1 := if any_ready s then now s
               else Z.max (now s) (match timer s with Some T => Z.min T n | None => n end)).
    assert (HnT : forall T, timer s = Some T -> n1 <= T).
    { intros T Et. destruct (g_armed _ G T Et) as (_ & _ & L). unfold n1. rewrite Et.
      destruct (any_ready s); lia. }
    assert (I1 : Inv {| now := n1; ph := ph s; deadline := deadline s; timer := timer s;
                        werr := werr s; tasks := tasks s; ext_seen := ext_seen s; wire := wire s |}).
    { apply (Inv_tick s); cbn; auto; try (split; assumption); unfold n1;
        destruct (any_ready s); auto; lia. }
    destruct (timer s) as [T|] eqn:Et; [destruct (T <=? n1) eqn:Ec|]; try exact I1.
    destruct (g_armed _ G T Et) as (HP & HD & _). specialize (HnT T eq_refl).
    apply (Inv_cancel _ _ KTimeout I1); cbn; auto.
    + right. split; [reflexivity|]. intros T0 [= <-]. lia.
    + intros He. repeat split; [exact He|]. rewrite HD. f_equal. lia.
  - (* someone else cancels the wrapper *)
    destruct (ph s) eqn:Ep; try (split; assumption).
    apply (Inv_cancel s _ (KExt k)); cbn; auto; [split; assumption|discriminate].
Qed.

Lemma run_inv : forall ops s, Inv s -> forallb op_ok ops = true -> Inv (run ops s).
Proof.
  induction ops as [|o ops IH]; intros s Hs Hok; [exact Hs|].
  cbn in Hok. apply andb_true_iff in Hok. destruct Hok as [H1 H2].
  cbn. apply IH; [apply step_inv; assumption|assumption].
Qed.

(* no step changes the deadline the call was made with; only a foreign cancel sets ext_seen *)
Lemma step_frame s o :
  deadline (step s o) = deadline s /\ (no_ext o = true -> ext_seen (step s o) = ext_seen s).
Proof.
  destruct o; cbn [step no_ext].
  - destruct (ph s); try (now split). destruct (deadline s); [destruct (_ <=? _)|]; now split.
  - destruct (ph s); now split.
  - destruct (nth_error _ _); [|now split]. destruct (is_ready _); now split.
  - now split.
  - destruct (timer s); [destruct (_ <=? _)|]; now split.
  - destruct (ph s); now split.
Qed.

Lemma run_frame : forall ops s,
  deadline (run ops s) = deadline s /\ (forallb no_ext ops = true -> ext_seen (run ops s) = ext_seen s).
Proof.
  induction ops as [|o ops IH]; intro s; [now split|].
  destruct (IH (step s o)) as [A B], (step_frame s o) as [C D].
  change (run (o :: ops) s) with (run ops (step s o)).
  split; [congruence|]. cbn [forallb]. intros [H1 H2]%andb_true_iff. rewrite B, D; auto.
Qed.

(* every state of every schedule: the invariant, the deadline the call was made with, and no
   foreign cancel seen if there was none *)
Section Schedule.
  Variables (n0 : Z) (dl : option Z) (ops : list op).
  Hypothesis Hok : forallb op_ok ops = true.
  Let s := run ops (init n0 dl).

  Lemma sched_GI : GI s.
  Proof. exact (proj1 (run_inv ops _ (init_inv n0 dl) Hok)). Qed.

  Lemma sched_TI t : In t (tasks s) -> TI s t.
  Proof. apply Forall_forall, (run_inv ops _ (init_inv n0 dl) Hok). Qed.

  Lemma sched_deadline : deadline s = dl.
  Proof. apply run_frame. Qed.

  Lemma sched_no_ext : forallb no_ext ops = true -> ext_seen s = false.
  Proof. apply run_frame. Qed.

  Lemma never_blocks_past_deadline D :
    ph s = Entered -> dl = Some D -> D <= now s -> quiescent s = true ->
    Forall (fun t => is_done t = true) (tasks s).
  Proof.
    intros Hp Hd Hn Hq. rewrite <- sched_deadline in Hd.
    unfold quiescent in Hq. apply andb_true_iff in Hq. destruct Hq as [Hq1 Hq2].
    apply negb_true_iff in Hq1, Hq2.
    assert (Ht : timer s = None).
    { destruct (timer s) as [T|] eqn:Et; [|reflexivity].
      destruct (g_armed _ sched_GI T Et) as (_ & HdT & Hle). unfold timer_due in Hq2. rewrite Et in Hq2.
      assert (T = D) by congruence. lia. }
    destruct (g_spent _ sched_GI D Hp Hd Ht) as [Hw _].
    apply existsb_false_Forall in Hq1. rewrite Forall_forall in *.
    intros t Hin. specialize (Hq1 t Hin). pose proof (t_status _ _ (sched_TI t Hin)) as H.
    unfold is_ready in Hq1. unfold is_done. destruct (ts t); try discriminate; [|reflexivity].
    now destruct H as (_ & H & _).
  Qed.

  Lemma completion_by_deadline D :
    ph s = Entered -> dl = Some D ->
    forall t, In t (tasks s) -> born t <= D ->
      (forall r a, ts t = Done r a -> a <= D) /\ (D < now s -> is_done t = true).
  Proof.
    intros Hp Hd t Hin Hb. rewrite <- sched_deadline in Hd. pose proof (sched_TI t Hin) as HT.
    destruct (is_done t) eqn:Edn.
    - split; [|reflexivity]. intros r a Et. pose proof (t_status _ _ HT) as H. rewrite Et in H.
      now apply H.
    - pose proof (TI_on_time s t HT Edn D Hp Hd Hb). unfold is_done in Edn.
      split; [intros r a Et; rewrite Et in Edn; discriminate|lia].
  Qed.

  Lemma timeout_only_from_timer :
    forallb no_ext ops = true ->
    forall t, In t (tasks s) ->
      (forall a, ts t = Done (RRaise KTimeout) a -> exists D, dl = Some D /\ D <= a) /\
      (ts t = Ready true -> dl = Some (now s) /\ werr s = Some KTimeout) /\
      (forall e, werr s = Some e -> e = KTimeout /\ exists D, dl = Some D /\ D <= now s).
  Proof.
    intros He%sched_no_ext t Hin. rewrite <- sched_deadline.
    pose proof (g_timeout _ sched_GI He) as Hwe. pose proof (t_status _ _ (sched_TI t Hin)) as H.
    split; [|split; [|exact Hwe]].
    - intros a Et. rewrite Et in H. now apply H.
    - intros Et. rewrite Et in H. destruct H as (_ & Hw & _ & Hd). split; [now apply Hd|].
      destruct (werr s) as [e|]; [|now contradiction Hw]. now destruct (Hwe e eq_refl) as [-> _].
  Qed.

  Lemma no_deadline_no_timer :
    dl = None ->
    timer s = None /\ timer_due s = false /\
    (forallb no_ext ops = true ->
     werr s = None /\
     forall t, In t (tasks s) -> ts t <> Ready true /\ forall a, ts t <> Done (RRaise KTimeout) a).
  Proof.
    intros Hd. pose proof (g_nodl _ sched_GI) as Ht. rewrite sched_deadline in Ht. specialize (Ht Hd).
    split; [exact Ht|]. split; [unfold timer_due; now rewrite Ht|].
    intro Hne. split.
    - destruct (werr s) as [e|] eqn:Ew; [|reflexivity].
      destruct (g_timeout _ sched_GI (sched_no_ext Hne) e Ew) as [_ [D [HD _]]].
      rewrite sched_deadline in HD. congruence.
    - intros t Hin. destruct (timeout_only_from_timer Hne t Hin) as (A1 & A2 & _). split.
      + intro H. destruct (A2 H). congruence.
      + intros a H. destruct (A1 a H) as [D [HD _]]. congruence.
  Qed.

  Lemma timer_fires_at_deadline T n :
    timer s = Some T -> any_ready s = false -> T <= n ->
    let s' := step s (OTick n) in
    dl = Some T /\ now s' = T /\ werr s' = Some KTimeout /\ timer s' = None /\
    forall i t, nth_error (tasks s) i = Some t -> ts t = Blocked ->
      exists t', nth_error (tasks s') i = Some t' /\ ts t' = Ready true /\ rest t' = rest t.
  Proof.
    intros Ht Har Hn. destruct (g_armed _ sched_GI T Ht) as (_ & Hd & Hle).
    rewrite sched_deadline in Hd. cbn [step]. rewrite Har, Ht.
    assert (E : Z.max (now s) (Z.min T n) = T) by lia. rewrite E. rewrite Z.leb_refl.
    cbn. repeat split; try congruence.
    (* a blocked task is inside the wrapper: the cancellation reaches it *)
    intros i t Hi Hb. exists (cancel_task t). split; [now apply map_nth_error|].
    pose proof (t_status _ _ (sched_TI t (nth_error_In _ _ Hi))) as H.
    rewrite Hb in H. unfold cancel_task. rewrite (proj1 H), Hb. cbn. split; reflexivity.
  Qed.

  Lemma cancelled_op_raises_timeout i t :
    forallb no_ext ops = true ->
    nth_error (tasks s) i = Some t -> ts t = Ready true ->
    dl = Some (now s) /\
    exists t', nth_error (tasks (step s (ORun i))) i = Some t' /\
               ts t' = Done (RRaise KTimeout) (now s).
  Proof.
    intros Hne Hi Hr. pose proof (nth_error_In _ _ Hi) as Hin.
    destruct (timeout_only_from_timer Hne t Hin) as (_ & A & _).
    destruct (A Hr) as [Hd Hw]. split; [exact Hd|].
    pose proof (t_status _ _ (sched_TI t Hin)) as H. rewrite Hr in H. destruct H as [Hins _].
    cbn [step]. rewrite Hi. unfold is_ready. rewrite Hr. cbn [tasks].
    eexists. split; [apply nth_error_upd_same; exact Hi|].
    unfold run_task. rewrite Hr. cbn. unfold raise_in. rewrite Hins, Hw. reflexivity.
  Qed.
End Schedule.

Lemma request_deadline_spec n0 timeout explicit :
  match request_deadline n0 timeout explicit with
  | None => timeout = None /\ explicit = None
  | Some D => (forall t, timeout = Some t -> D <= n0 + t) /\
              (forall d, explicit = Some d -> D <= d) /\
              (timeout = Some (D - n0) \/ explicit = Some D)
  end.
Proof.
  unfold request_deadline. destruct timeout as [t|], explicit as [d|]; cbn; repeat split;
    try discriminate; try (intros ? [= <-]; lia).
  - destruct (Z.min_spec (n0 + t) d) as [[_ ->]|[_ ->]]; [left; f_equal; lia|now right].
  - left. f_equal. lia.
  - now right.
Qed.

(* the deterministic scheduler used by the correspondence check runs one of the schedules: each
   decision is a tick, a run, a completion or the spawn of the next path it was given *)
Lemma next_ops_ok avail horizon specs s os specs' :
  forallb (fun sp => guarded_path (s_path sp)) specs = true ->
  next_ops avail horizon specs s = Some (os, specs') ->
  forallb op_ok os = true /\ forallb (fun sp => guarded_path (s_path sp)) specs' = true.
Proof.
  intro Hs. unfold next_ops.
  destruct (timer_due s); [intros [= <- <-]; auto|].
  destruct (index_ready _ _); [intros [= <- <-]; auto|].
  destruct (index_completable _ _ _ _); [intros [= <- <-]; auto|].
  destruct (forallb is_done _).
  - destruct specs as [|sp r]; [discriminate|]. cbn in Hs. apply andb_true_iff in Hs as [H1 H2].
    intros [= <- <-]. cbn. now rewrite H1.
  - destruct (next_instant _ _); [|discriminate]. destruct (_ <=? _); [|discriminate].
    intros [= <- <-]. auto.
Qed.

Lemma play_ops_ok : forall fuel avail horizon specs s,
  forallb (fun sp => guarded_path (s_path sp)) specs = true ->
  forallb op_ok (play_ops fuel avail horizon specs s) = true.
Proof.
  induction fuel as [|f IH]; intros avail horizon specs s Hs; [reflexivity|].
  cbn [play_ops]. destruct (next_ops avail horizon specs s) as [[os specs']|] eqn:E; [|reflexivity].
  destruct (next_ops_ok _ _ _ _ _ _ Hs E) as [A B]. rewrite forallb_app, A. now apply IH.
Qed.

(* the generated programs: every await of every client operation is guarded *)
From GV Require Import Gen.StreamOps.

Lemma client_paths_guarded : forallb guarded_path (all_client_paths client_ops) = true.
Proof. vm_compute. reflexivity. Qed.

Lemma client_paths_fuel_enough :
  map (fun o => op_paths PATH_FUEL client_ops o) client_opnames =
  map (fun o => op_paths (S PATH_FUEL) client_ops o) client_opnames.
Proof. vm_compute. reflexivity. Qed.

Lemma client_op_path_guarded o p :
  In o client_opnames -> In p (op_flat_paths client_ops o) -> guarded_path p = true.
Proof.
  intros Ho Hp. apply (proj1 (forallb_forall _ _) client_paths_guarded), in_or_app. left.
  apply in_flat_map. exists o. now split.
Qed.

Lemma client_aexit_path_guarded p fd :
  In (p, fd) (aexit_paths client_ops) -> guarded_path p = true.
Proof.
  intro Hp. apply (proj1 (forallb_forall _ _) client_paths_guarded), in_or_app. right.
  exact (in_map fst _ _ Hp).
Qed.

(* the concrete path of a call is one of the syntactic paths of its operation *)
Definition cpth (r : cres) : pth := (snd (fst r), snd r).

Lemma cflat_flat r : cflat r = flat (cpth r).
Proof. destruct r as [[s a] t]. reflexivity. Qed.

Lemma flat_ret_to_fall p : flat (ret_to_fall p) = flat p.
Proof. destruct p as [a []]; reflexivity. Qed.

(* what the caller of `await self.<op>()` sees of the callee's result *)
Definition self_ret (r : cres) : cres :=
  match r with (s, a, t) => (s, a, match t with TRet => TFall | x => x end) end.

Lemma cpth_self_ret r : cpth (self_ret r) = ret_to_fall (cpth r).
Proof. destruct r as [[s a] []]; reflexivity. Qed.

Lemma cseq_path r k ps ks :
  In (cpth r) ps -> (forall s, In (cpth (k s)) ks) -> In (cpth (cseq r k)) (seq_paths ps ks).
Proof.
  intros Hr Hk. apply in_flat_map. exists (cpth r). split; [exact Hr|].
  destruct r as [[s a] []]; cbn [cseq cpth fst snd]; try (left; reflexivity).
  specialize (Hk s). destruct (k s) as [[s' a'] t']. exact (in_map _ _ _ Hk).
Qed.

Lemma cseq_ext r k k' : (forall s, k s = k' s) -> cseq r k = cseq r k'.
Proof. intro H. destruct r as [[s a] []]; cbn [cseq]; [rewrite H|..]; reflexivity. Qed.

(* the operations a statement awaits *)
Fixpoint calls (i : stmt) : list opname :=
  match i with
  | SAwaitSelf o => [o]
  | SGuarded body => flat_map calls body
  | SIf _ t e => flat_map calls t ++ flat_map calls e
  | _ => []
  end.

Lemma stmt_nested_ind (P : stmt -> Prop) :
  (forall body, Forall P body -> P (SGuarded body)) ->
  (forall c t e, Forall P t -> Forall P e -> P (SIf c t e)) ->
  (forall i, match i with SGuarded _ | SIf _ _ _ => False | _ => True end -> P i) ->
  forall i, P i.
Proof.
  intros HG HI HA. fix IH 1. intro i.
  assert (L : forall l, Forall P l).
  { fix IHl 1. intros [|x l]; constructor; [apply IH|apply IHl]. }
  destruct i; try (apply HA; exact I); [apply HG|apply HI]; apply L.
Qed.

Section ConcretePath.
  Variable self_paths : opname -> list pth.
  Variable self_run : opname -> pctx -> cst -> cres.
  Variable ok : opname -> Prop.
  Hypothesis self_path : forall o, ok o -> forall cx s, In (cpth (self_run o cx s)) (self_paths o).

  (* cstmt runs a nested block by a local copy of cblock (stmt_paths does too, but there the copy is
     convertible with block_paths) *)
  Lemma cstmt_nested cx : forall l s,
    (fix go (l : list stmt) (s : cst) : cres :=
       match l with [] => (s, [], TFall) | x :: r => cseq (cstmt self_run cx x s) (go r) end) l s
    = cblock self_run cx l s.
  Proof. induction l as [|x r IH]; intro s; [reflexivity|]. apply cseq_ext, IH. Qed.

  Lemma cstmt_guarded cx body s :
    cstmt self_run cx (SGuarded body) s =
    match cblock self_run cx body s with (s', a, t) => (s', AEnter :: a ++ [AExit], t) end.
  Proof. cbn [cstmt]. now rewrite cstmt_nested. Qed.

  Lemma cstmt_if cx c t e s :
    cstmt self_run cx (SIf c t e) s = cblock self_run cx (if ceval cx s c then t else e) s.
  Proof. apply cstmt_nested. Qed.

  Let stmt_ok (i : stmt) : Prop :=
    forall cx, (forall o, In o (calls i) -> ok o) ->
    forall s, In (cpth (cstmt self_run cx i s)) (stmt_paths self_paths i).

  Lemma cblock_path_from l : Forall stmt_ok l ->
    forall cx, (forall o, In o (flat_map calls l) -> ok o) ->
    forall s, In (cpth (cblock self_run cx l s)) (block_paths self_paths l).
  Proof.
    induction 1 as [|x r Hx _ IHr]; intros cx Hc s; [left; reflexivity|].
    cbn [flat_map] in Hc. apply cseq_path.
    - apply Hx. intros o Ho. apply Hc, in_or_app. now left.
    - apply IHr. intros o Ho. apply Hc, in_or_app. now right.
  Qed.

  Lemma cstmt_path : forall i, stmt_ok i.
  Proof.
    induction i as [body IH|c t e IHt IHe|i Hi] using stmt_nested_ind; intros cx Hc s.
    - rewrite cstmt_guarded. change (stmt_paths self_paths (SGuarded body))
        with (map guard_wrap (block_paths self_paths body)).
      pose proof (cblock_path_from body IH cx Hc s) as B.
      destruct (cblock self_run cx body s) as [[s' a] t']. exact (in_map guard_wrap _ _ B).
    - rewrite cstmt_if. change (stmt_paths self_paths (SIf c t e))
        with (block_paths self_paths t ++ block_paths self_paths e).
      cbn [calls] in Hc. apply in_or_app.
      destruct (ceval cx s c);
        [left; apply (cblock_path_from t IHt)|right; apply (cblock_path_from e IHe)];
        intros o Ho; apply Hc, in_or_app; auto.
    - destruct i; try contradiction; cbn [cstmt stmt_paths]; try (now left).
      + destruct x. now left.
      + destruct (has HN_grpc_timeout hs); now left.
      + destruct p; now left.
      + fold (self_ret (self_run o (default_pctx cx) s)). rewrite cpth_self_ret.
        apply in_map, self_path, Hc. now left.
      + destruct h; try (now left). destruct (x_status_err cx); [right|]; now left.
  Qed.

  Lemma cblock_path cx l : (forall o, In o (flat_map calls l) -> ok o) ->
    forall s, In (cpth (cblock self_run cx l s)) (block_paths self_paths l).
  Proof. apply cblock_path_from, Forall_forall. intros i _. apply cstmt_path. Qed.
End ConcretePath.

(* every `await self.<op>()` reachable from o finds its callee with the fuel that is left *)
Fixpoint resolves (fuel : nat) (tbl : optable) (o : opname) : bool :=
  match fuel with
  | O => false
  | S f => match lookup o tbl with
           | None => false
           | Some body => forallb (resolves f tbl) (flat_map calls body)
           end
  end.

Lemma cop_path tbl : forall fuel o, resolves fuel tbl o = true ->
  forall cx s, In (cpth (cop fuel tbl o cx s)) (op_paths fuel tbl o).
Proof.
  induction fuel as [|f IH]; intros o Hr cx s; [discriminate|].
  cbn [cop op_paths resolves] in *. destruct (lookup o tbl) as [body|]; [|discriminate].
  apply (cblock_path _ _ _ IH). now apply forallb_forall.
Qed.

Lemma cpath_in_paths tbl o cx fl : resolves PATH_FUEL tbl o = true ->
  In (cpath tbl o cx fl) (op_flat_paths tbl o).
Proof. intro H. unfold cpath. rewrite cflat_flat. apply in_map, cop_path, H. Qed.

Lemma caexit_in_paths tbl cx fl exc closing :
  resolves PATH_FUEL tbl OpRecvInitialMetadata = true ->
  resolves PATH_FUEL tbl OpRecvTrailingMetadata = true ->
  In (caexit tbl cx fl exc closing) (aexit_paths tbl).
Proof.
  intros H1 H2. unfold caexit, aexit_paths.
  destruct (negb _); [now left|]. right.
  assert (Hs : forall (b : bool) o s, resolves PATH_FUEL tbl o = true ->
            In (cpth (if b then (s, [], TFall)
                      else self_ret (cop PATH_FUEL tbl o (default_pctx cx) s)))
               (([], TFall) :: map ret_to_fall (op_paths PATH_FUEL tbl o))).
  { intros [|] o s H; [now left|right]. rewrite cpth_self_ret. apply in_map, cop_path, H. }
  destruct (_ || _).
  - apply (in_map (fun p => (flat (ret_to_fall p), true)) _ ([] ++ [], TFall)).
    apply (cseq_path ({| c_fl := fl; c_lend := false |}, [], TFall) (fun s => (s, [], TFall)));
      intros; now left.
  - cbv zeta. rewrite cflat_flat, <- flat_ret_to_fall.
    apply (in_map (fun p => (flat (ret_to_fall p), true))), cseq_path.
    + apply (Hs _ _ _ H1).
    + intro s. apply (Hs _ _ _ H2).
Qed.

Lemma client_cpath_in_paths o cx fl :
  In o client_opnames -> In (cpath client_ops o cx fl) (op_flat_paths client_ops o).
Proof. intro Ho. apply cpath_in_paths. revert o Ho. apply forallb_forall. reflexivity. Qed.

Lemma client_caexit_in_paths cx fl exc closing :
  In (caexit client_ops cx fl exc closing) (aexit_paths client_ops).
Proof. apply caexit_in_paths; reflexivity. Qed.
