(* Non-vacuity examples for C03: concrete, non-trivial requests / programs / environments satisfy the
   hypotheses of the theorems of Props/C03.v, and the model says on them what the real server was observed
   to do (the same cases are in corpus/C03 or in the enumeration of harness/drive_C03.py).  vm_compute only. *)
From Coq Require Import String ZArith List Bool.
From GV Require Import Lib.Str Gen.Facts Gen.FactsC03 Model.Base64 Model.Metadata Model.ServerCall
  Proofs.C03Proofs.
Import ListNotations.
Open Scope Z_scope.

Definition with_header (k v : string) : list header := good_request ++ [(s2z k, s2z v)].
Definition without (k : string) : list header :=
  filter (fun h => negb (zlist_eqb (fst h) (s2z k))) good_request.
Definition trailers_ok : frame := FTrailers 0 None.
Definition noeof (c : card) (x : extk) : env := mkE c 1 false false x None proto_subtype false.

(* a streaming handler: recv, headers, two messages around a sleep, return *)
Definition p_stream : prog := mkP [Recv; SendInitial false; SendMessage false; Sleep; SendMessage false] (Fin Return) Honour.
Example ex_stream_out :
  r_out (run_call known_paths good_request (std_env SS ENone) p_stream) = [resp_headers; FData; FData; trailers_ok].
Proof. vm_compute. reflexivity. Qed.
Example ex_stream_hyps :
  let r := run_call known_paths good_request (std_env SS ENone) p_stream in
  validate proto_subtype known_paths good_request = VAccept TNone /\ r_end r <> KHang /\ reset_kind (r_end r) = false /\
  silent_exit SS (r_pre r) (exit_exn (r_end r)) = false /\ returned_normally (r_end r) = true /\
  trail_done (r_pre r) = false /\ cancel_done (r_pre r) = false /\ accepted (r_out r) = true /\
  final_status (r_out r) = Some (0, None).
Proof. vm_compute. repeat split; discriminate. Qed.

(* a unary handler that answers and then fails: the message is out, the status is UNKNOWN *)
Example ex_exception :
  let r := run_call known_paths good_request (std_env UU ENone) (mkP [Recv; SendMessage false] (Fin (RaiseException XPlain)) Honour) in
  r_out r = [resp_headers; FData; FTrailers 2 (Some internal_msg)] /\ exit_exn (r_end r) = Some EExc /\
  trail_done (r_pre r) = false /\ cancel_done (r_pre r) = false /\ reset_kind (r_end r) = false.
Proof. vm_compute. repeat split. Qed.

(* raise GRPCError(NOT_FOUND, "nf") before anything was sent, client has not ended: trailers-only + RST *)
Example ex_grpc_error :
  let r := run_call known_paths good_request (noeof UU ENone)
             (mkP [Recv] (Fin (RaiseGRPC 5 (Some (s2z "nf")))) Honour) in
  r_out r = [FHeaders 200 true (Some 5) (Some (s2z "nf")) true; FRst] /\
  exit_exn (r_end r) = Some (EGRPC 5 (Some (s2z "nf"))) /\ accepted (r_out r) = true.
Proof. vm_compute. repeat split. Qed.

(* D42 (repaired): unary handler raises GRPCError(OK) without a message: UNKNOWN, exactly one terminal;
   the hypotheses of C03_grpc_ok_without_message_status hold *)
Example ex_grpc_ok_without_message :
  let r := run_call known_paths good_request (std_env UU ENone) (mkP [Recv] (Fin (RaiseGRPC status_ok None)) Honour) in
  exit_exn (r_end r) = Some (EGRPC status_ok None) /\ reset_kind (r_end r) = false /\
  trail_done (r_pre r) = false /\ cancel_done (r_pre r) = false /\ msg_done (r_pre r) = false /\
  r_out r = [FHeaders 200 true (Some 2) (Some internal_msg) true].
Proof. vm_compute. repeat split. Qed.

(* unary handler returns without a message: UNKNOWN, not OK *)
Example ex_unary_missing :
  final_status (r_out (run_call known_paths good_request (std_env UU ENone) (mkP [Recv] (Fin Return) Honour)))
  = Some (2, Some internal_msg).
Proof. vm_compute. reflexivity. Qed.

(* explicit trailers, then raise: the explicit status stands *)
Example ex_explicit_then_raise :
  let r := run_call known_paths good_request (std_env US ENone)
             (mkP [SendMessage false; SendTrailing 7 (Some (s2z "pd")) false] (Fin (RaiseGRPC 3 (Some (s2z "late")))) Honour) in
  trail_done (r_pre r) = true /\ final_status (r_out r) = Some (7, Some (s2z "pd")) /\
  r_out r = [resp_headers; FData; FTrailers 7 (Some (s2z "pd"))].
Proof. vm_compute. repeat split. Qed.

(* deadline while the handler waits for a second message; it swallows the cancellation and raises a
   BaseException: still DEADLINE_EXCEEDED *)
Example ex_deadline_swallowed :
  let hs := with_header "grpc-timeout" "100S" in
  let r := run_call known_paths hs (noeof SU ENone) (mkP [Recv; Recv] (Fin Return) (Swallow RaiseBase)) in
  validate proto_subtype known_paths hs = VAccept TValid /\ r_end r = KSwallowed CDeadline RaiseBase /\
  deadline_kind (r_end r) = true /\ trail_done (r_pre r) = false /\ cancel_done (r_pre r) = false /\
  r_out r = [FHeaders 200 true (Some 4) None true; FRst] /\ r_results r = [RMsg; RCancelled].
Proof. vm_compute. repeat split. Qed.

(* deadline falls into the second Sleep of a streaming handler *)
Example ex_deadline_in_sleep :
  let hs := with_header "grpc-timeout" "23436u" in
  let r := run_call known_paths hs (mkE SS 1 false true ENone (Some 1%nat) proto_subtype false)
             (mkP [Sleep; SendMessage false; Sleep; SendMessage false] (Fin Return) Honour) in
  r_end r = KCancelled CDeadline /\ r_out r = [resp_headers; FData; FTrailers 4 None].
Proof. vm_compute. repeat split. Qed.

(* client RST_STREAM while the handler waits: nothing more is sent; a prefix of a response, not a response *)
Example ex_client_reset :
  let r := run_call known_paths good_request (std_env SS EReset) (mkP [SendMessage false] Wait Honour) in
  r_end r = KCancelled CReset /\ reset_kind (r_end r) = true /\ r_out r = [resp_headers; FData] /\
  well_formed (r_out r) = true /\ accepted (r_out r) = false.
Proof. vm_compute. repeat split. Qed.

(* Server.close() swallowed: the handler goes on and the call ends normally *)
Example ex_close_swallowed :
  let r := run_call known_paths good_request (std_env UU EClose) (mkP [SendMessage false] Wait (Swallow Return)) in
  r_end r = KSwallowed CClose Return /\ r_out r = [resp_headers; FData; trailers_ok].
Proof. vm_compute. repeat split. Qed.

(* h2 closes a half-closed(local) stream when a send is refused: OK trailers-only, then send_message, then
   cancel -> no RST_STREAM any more; without the send_message the RST_STREAM goes out *)
Example ex_h2_local_closed :
  let r := run_call known_paths good_request (noeof US ENone)
             (mkP [SendTrailing 0 None false; SendMessage false; Cancel] (Fin Return) Honour) in
  r_out r = [FHeaders 200 true (Some 0) None true] /\ r_results r = [ROk; RH2Err; RH2Err].
Proof. vm_compute. repeat split. Qed.
Example ex_trailers_then_cancel :
  let r := run_call known_paths good_request (noeof US ENone)
             (mkP [SendTrailing 0 None false; Cancel] (Fin Return) Honour) in
  r_out r = [FHeaders 200 true (Some 0) None true; FRst] /\ r_results r = [ROk; ROk].
Proof. vm_compute. repeat split. Qed.

(* refused requests: the inputs of the repaired defect D3, and one per check *)
Example ex_no_path :
  validate proto_subtype known_paths (without ":path") = VAbort 4 200 (Some 12) (Some (s2z "Method not found")).
Proof. vm_compute. reflexivity. Qed.
Example ex_no_method : validate proto_subtype known_paths (without ":method") = VAbort 0 405 None None.
Proof. vm_compute. reflexivity. Qed.
Example ex_bad_bin :
  validate proto_subtype known_paths (with_header "x-bin" "A") = VAbort 6 200 (Some 2) (Some (s2z "Invalid metadata")).
Proof. vm_compute. reflexivity. Qed.
Example ex_bad_timeout :
  validate proto_subtype known_paths (with_header "grpc-timeout" "5x") = VAbort 5 200 (Some 2) (Some (s2z "Invalid grpc-timeout header")).
Proof. vm_compute. reflexivity. Qed.
Example ex_json :
  validate proto_subtype known_paths (good_request ++ [(s2z "content-type", s2z "application/grpc+json")])
  = VAbort 2 415 (Some 2) (Some (s2z "Unacceptable content-type header")).
Proof. vm_compute. reflexivity. Qed.
Example ex_no_te : validate proto_subtype known_paths (without "te") = VAbort 3 400 (Some 2) (Some te_msg).
Proof. vm_compute. reflexivity. Qed.
Example ex_two_defects_first_wins :
  validate proto_subtype known_paths (filter (fun h => negb (zlist_eqb (fst h) (s2z "te"))) (with_header ":path" "/nope"))
  = VAbort 3 400 (Some 2) (Some te_msg).
Proof. vm_compute. reflexivity. Qed.
(* D7: a deadline that has expired on arrival *)
Example ex_expired : validate proto_subtype known_paths (with_header "grpc-timeout" "0n") = VAccept TExpired.
Proof. vm_compute. reflexivity. Qed.
Example ex_expired_out :
  r_out (run_call known_paths (with_header "grpc-timeout" "0n") (std_env UU ENone) p_stream)
  = [FHeaders 200 true (Some 4) None true].
Proof. vm_compute. reflexivity. Qed.
Example ex_abort_out :
  let r := run_call known_paths (without ":path") (noeof UU ENone) p_stream in
  r_out r = [FHeaders 200 false (Some 12) (Some (s2z "Method not found")) true; FRst] /\ accepted (r_out r) = true.
Proof. vm_compute. repeat split. Qed.

(* rendering: the header lists as built in server.py *)
Example ex_render_trailers_only :
  render proto_subtype (FHeaders 200 true (Some 12) (Some (s2z "m")) true) =
  Some ([(s2z ":status", s2z "200"); (s2z "content-type", s2z "application/grpc+proto");
         (s2z "grpc-status", s2z "12"); (s2z "grpc-message", s2z "m")], true).
Proof. vm_compute. reflexivity. Qed.

Example ex_timeouts :
  decode_timeout_zero (s2z "99999999n") = Some false /\ decode_timeout_zero (s2z "00000000H") = Some true /\
  decode_timeout_zero (s2z "123456789S") = None /\ decode_timeout_zero (s2z "5S ") = None /\
  decode_timeout_zero (s2z "S") = None /\ decode_timeout_zero (s2z "") = None.
Proof. vm_compute. repeat split. Qed.

(* the handler's own asyncio.TimeoutError while the request carries a deadline that is far away: UNKNOWN *)
Example ex_own_timeout :
  let hs := with_header "grpc-timeout" "100S" in
  let r := run_call known_paths hs (std_env UU ENone) (mkP [Recv; SendMessage false] (Fin (RaiseException XTimeout)) Honour) in
  validate proto_subtype known_paths hs = VAccept TValid /\ r_end r = KFin (RaiseException XTimeout) /\
  trail_done (r_pre r) = false /\ cancel_done (r_pre r) = false /\
  r_out r = [resp_headers; FData; FTrailers 2 (Some internal_msg)].
Proof. vm_compute. repeat split. Qed.

(* send_trailing_metadata with invalid metadata fails part-way and sets no flag; the handler returns:
   the exit path still sends the trailers (OK) *)
Example ex_trailing_fails_partway :
  let r := run_call known_paths good_request (std_env UU ENone)
             (mkP [SendMessage false; SendTrailing 0 None true] (Fin Return) Honour) in
  r_results r = [ROk; RError] /\ trail_done (r_pre r) = false /\
  r_out r = [resp_headers; FData; trailers_ok].
Proof. vm_compute. repeat split. Qed.

(* transport paused, send_trailing_metadata waits for write_ready, the deadline fires there: DEADLINE_EXCEEDED
   once the environment resumes writing *)
Example ex_paused_trailing_deadline :
  let hs := with_header "grpc-timeout" "100S" in
  let r := run_call known_paths hs (noeof UU ENone)
             (mkP [SendMessage false; Pause; SendTrailing 5 (Some (s2z "x")) false] (Fin Return) Honour) in
  r_results r = [ROk; ROk; RCancelled] /\ r_end r = KCancelled CDeadline /\
  r_out r = [resp_headers; FData; FTrailers 4 None; FRst].
Proof. vm_compute. repeat split. Qed.

(* send_message fails in the codec after the implicit HEADERS went out *)
Example ex_message_fails_partway :
  let r := run_call known_paths good_request (std_env UU ENone) (mkP [SendMessage true] (Fin Return) Honour) in
  r_results r = [RError] /\ r_out r = [resp_headers; FTrailers 2 (Some internal_msg)].
Proof. vm_compute. repeat split. Qed.

(* a deadline that has expired on arrival while the transport is paused: the handler is not called, the
   DEADLINE_EXCEEDED trailers go out as soon as the environment resumes writing -- for every cardinality *)
Example ex_expired_paused :
  forallb (fun c => match r_out (run_call known_paths (with_header "grpc-timeout" "0n") (mkE c 1 false false ENone None proto_subtype true) p_stream)
                    with [FHeaders 200 true (Some 4) None true; FRst] => true | _ => false end) [UU; US; SU; SS] = true.
Proof. vm_compute. reflexivity. Qed.

(* transport paused from the start, valid request: the first sending call waits; the deadline ends it *)
Example ex_paused_from_start :
  let r := run_call known_paths (with_header "grpc-timeout" "100S") (mkE UU 1 false true ENone None proto_subtype true)
             (mkP [Recv; SendMessage false] (Fin Return) Honour) in
  r_results r = [RMsg; RCancelled] /\ r_out r = [FHeaders 200 true (Some 4) None true].
Proof. vm_compute. repeat split. Qed.

(* a server whose codec is not the proto one (content subtype "json"): the bare application/grpc means +proto and
   is refused with 415 / UNKNOWN; its own subtype is accepted and every response shape carries
   application/grpc+json *)
Definition json : list Z := s2z "json".
Example ex_json_server_refuses_bare :
  validate json known_paths good_request = VAbort 2 415 (Some 2) (Some (s2z "Unacceptable content-type header")) /\
  validate json known_paths (request_with (s2z "application/grpc+proto"))
    = VAbort 2 415 (Some 2) (Some (s2z "Unacceptable content-type header")) /\
  validate json known_paths (request_with (s2z "application/grpc+json")) = VAccept TNone /\
  validate proto_subtype known_paths (request_with (s2z "application/grpc+json"))
    = VAbort 2 415 (Some 2) (Some (s2z "Unacceptable content-type header")).
Proof. vm_compute. repeat split. Qed.
Example ex_json_server_trailers_only :
  let e := mkE UU 1 false true ENone None json false in
  let r := run_call known_paths (request_with (s2z "application/grpc+json")) e
             (mkP [Recv] (Fin (RaiseGRPC 5 (Some (s2z "nf")))) Honour) in
  map (render json) (r_out r) =
  [Some ([(s2z ":status", s2z "200"); (s2z "content-type", s2z "application/grpc+json");
          (s2z "grpc-status", s2z "5"); (s2z "grpc-message", s2z "nf")], true)].
Proof. vm_compute. reflexivity. Qed.
