(* C06: any order of stream API calls yields a well-formed exchange or a refusal.
   Proved about the GENERATED programs (Gen/StreamOps.v, sliced from /repo on every run) by the
   reflective closure of Lib/Reach.v: for each side and each of the 4 cardinalities the set of
   reachable (flags, h2 stream state, wire monitor) states is computed by an exploration that tries
   every call with every resolution of the environment's choices from every state it finds, run to
   the end, and checked to satisfy `good`; both
   initial states of the peer's half of the stream are covered (reachable_canon).  Histories are
   unbounded. *)
From Coq Require Import List Bool PArith NArith.
From GV Require Import Lib.Reach Model.StreamIR Model.StreamSem Gen.StreamOps.
Import ListNotations.

Definition bools := [false; true].
(* one alphabet for both sides: `gstep` refuses an operation its side does not have, as a no-op *)
Definition all_opnames := [OpSendRequest; OpSendMessage; OpEnd; OpRecvInitialMetadata; OpRecvMessage;
                           OpRecvTrailingMetadata; OpCancel; OpSendInitialMetadata;
                           OpSendTrailingMetadata].
Definition all_calls : list call :=
  PeerEnds :: flat_map (fun o => flat_map (fun e => map (fun k => Call o e k) bools) bools) all_opnames.

Lemma all_calls_complete : forall c : call, In c all_calls.
Proof. intros [o e k|]; [destruct o, e, k|]; vm_compute; tauto. Qed.

Definition b2n (b : bool) : N := if b then 1%N else 0%N.
Definition flags_code (f : flags) : N :=
  match f with Build_flags a1 a2 a3 a4 a5 a6 a7 a8 a9 =>
    (b2n a1 + 2 * (b2n a2 + 2 * (b2n a3 + 2 * (b2n a4 + 2 * (b2n a5 + 2 * (b2n a6 + 2 * (b2n a7
     + 2 * (b2n a8 + 2 * b2n a9))))))))%N end.
Definition h2_code (h : h2s) : N :=
  match h with H2Idle => 0 | H2Closed => 1 | H2Open l r => 2 + b2n l + 2 * b2n r end%N.
Definition cnt_code (c : cnt) : N := match c with C0 => 0 | C1 => 1 | C2 => 2 end%N.
Definition mon_code (m : mon) : N :=
  match m with M0 => 0 | MCut => 1 | MBad => 2 | MOpen c => 3 + cnt_code c
          | MDone o c => 6 + b2n o + 2 * cnt_code c end%N.
Definition gkey (g : gstate) : positive :=
  N.succ_pos (flags_code (g_fl g) + 512 * (h2_code (g_h2 g) + 8 * (mon_code (g_mon g)
              + 16 * b2n (g_viol g))))%N.

Lemma flags_eqb_eq x y : flags_eqb x y = true -> x = y.
Proof.
  destruct x, y. unfold flags_eqb. rewrite !andb_true_iff. intro H. decompose [and] H.
  f_equal; apply eqb_prop; assumption.
Qed.

Lemma gstate_eqb_eq a b : gstate_eqb a b = true -> a = b.
Proof.
  destruct a as [fa ha ma va], b as [fb hb mb vb]. unfold gstate_eqb; cbn [g_fl g_h2 g_mon g_viol].
  rewrite !andb_true_iff. intros [[[Hf Hh] Hm] Hv].
  apply flags_eqb_eq in Hf. apply eqb_prop in Hv. subst. f_equal.
  - destruct ha as [|[] []|], hb as [|[] []|]; try discriminate; reflexivity.
  - destruct ma as [|[]|[] []| |], mb as [|[]|[] []| |]; try discriminate; reflexivity.
Qed.

Definition tbl_of (sd : side) : optable := match sd with Client => client_ops | Server => server_ops end.

Definition sys_step (sd : side) (cs ss : bool) := step sd (tbl_of sd) cs ss.

Definition explore (sd : side) (cs ss remote : bool) : table gstate * bool :=
  closure gstate call gkey gstate_eqb (sys_step sd cs ss) all_calls (init sd remote) (N.to_nat 100000).

(* the exploration has to finish: then its table is closed under every call, and `good` is evaluated on it *)
Definition check (sd : side) (cs ss remote : bool) : bool :=
  let '(m, finished) := explore sd cs ss remote in finished && allP gstate (good sd cs ss) m.

(* every state reachable from the fresh stream by any history of calls, each resolved in any of the
   ways the environment allows *)
Definition reachable (sd : side) (cs ss remote : bool) : gstate -> Prop :=
  reach gstate call (sys_step sd cs ss) all_calls (init sd remote).

Lemma check_sound sd cs ss remote :
  check sd cs ss remote = true ->
  forall g, reachable sd cs ss remote g -> good sd cs ss g = true.
Proof.
  unfold check, explore, reachable. destruct (closure _ _ _ _ _ _ _ _) as [m finished] eqn:E.
  rewrite andb_true_iff. intros [-> Hp].
  exact (explored_sound gstate call gkey gstate_eqb gstate_eqb_eq (sys_step sd cs ss) all_calls
                        (good sd cs ss) (init sd remote) _ m E Hp).
Qed.

(* The peer's half matters only through the initial h2 state.  A client stream starts idle whatever
   `remote` says, and the server stream whose peer has already ended is what PeerEnds makes of the one
   whose peer has not: so 8 closures cover the 16 configurations. *)
Definition canon (sd : side) : bool := match sd with Client => false | Server => true end.

Lemma reachable_canon sd cs ss remote g :
  reachable sd cs ss remote g -> reachable sd cs ss (canon sd) g.
Proof.
  destruct sd, remote; try exact (fun H => H).
  apply reach_trans. eapply reach_step; [apply reach_init | apply (all_calls_complete PeerEnds) | now left].
Qed.

Lemma canon_checks sd cs ss : check sd cs ss (canon sd) = true.
Proof. destruct sd, cs, ss; vm_compute; reflexivity. Qed.

(* `good`: the frames emitted so far form a prefix of a well-formed Request / Response (exactly one
   message for a unary request; at most one for a unary reply and exactly one with OK; required
   protocol headers present; nothing after RST_STREAM), every call refused with ProtocolError
   emitted nothing and changed no flag, and the interpreter never ran out of fuel. *)
Theorem any_call_order_is_wellformed :
  forall (sd : side) (cs ss remote : bool) (g : gstate),
    reachable sd cs ss remote g -> good sd cs ss g = true.
Proof.
  intros sd cs ss remote g H. exact (check_sound _ _ _ _ (canon_checks sd cs ss) g (reachable_canon _ _ _ _ _ H)).
Qed.
