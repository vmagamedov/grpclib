(* Non-vacuity examples for C17: concrete configurations and schedules that satisfy the hypotheses
   of the theorems, with the log the model produces.  Everything is decided by evaluation. *)
From Coq Require Import ZArith List Bool.
From GV Require Import Model.Keepalive Proofs.C17Proofs.
Import ListNotations.
Open Scope Z_scope.

Definition T (s : Z) : ev := Tick (sec s) true false.

(* keepalive 10 s / timeout 4 s, pings allowed without calls, no budget, min interval 1 s *)
Definition ex_cfg : cfg := mkCfg true (sec 10) (sec 4) true 0 (sec 1).

Example ex_cfg_ok : cfg_ok ex_cfg.
Proof. apply cfg_okb_ok. reflexivity. Qed.

(* a live peer: every ping acknowledged 3 s later (< 4 s) *)
Definition ex_live : list ev := [T 10; T 13; Ack; T 20; T 23; Ack; T 30; T 33; Ack; T 39].

Example ex_live_log :
  snd (run ex_cfg 0 ex_live) =
  [(sec 10, IPing); (sec 13, ITick); (sec 13, IAck); (sec 20, IPing); (sec 23, ITick);
   (sec 23, IAck); (sec 30, IPing); (sec 33, ITick); (sec 33, IAck); (sec 39, ITick)].
Proof. vm_compute. reflexivity. Qed.

Example ex_live_hypothesis :
  acked_in_time (k_timeout ex_cfg) (snd (run ex_cfg 0 ex_live)) (now (fst (run ex_cfg 0 ex_live))).
Proof. apply acked_in_timeb_sound. vm_compute. reflexivity. Qed.

(* the same peer stops acknowledging at sigma = 25 s: closed at 34 s <= 25 + 10 + 4 *)
Definition ex_dead : list ev := [T 10; T 13; Ack; T 20; T 23; Ack; T 30; T 34; T 40].

Example ex_dead_log :
  snd (run ex_cfg 0 ex_dead) =
  [(sec 10, IPing); (sec 13, ITick); (sec 13, IAck); (sec 20, IPing); (sec 23, ITick);
   (sec 23, IAck); (sec 30, IPing); (sec 34, IClose); (sec 40, ITick)].
Proof. vm_compute. reflexivity. Qed.

Example ex_dead_hypotheses :
  quiet ex_cfg (sec 25) (snd (run ex_cfg 0 ex_dead)) /\
  bound ex_cfg (sec 25) < now (fst (run ex_cfg 0 ex_dead)).
Proof. split; [apply quietb_sound|]; vm_compute; reflexivity. Qed.

(* the ping of 30 s is followed by no acknowledgement at all *)
Example ex_dead_unanswered :
  exists l1 l2, snd (run ex_cfg 0 ex_dead) = l1 ++ (sec 30, IPing) :: l2 /\
                has IAck l2 = false /\ has ILost l2 = false /\
                sec 30 + k_timeout ex_cfg < now (fst (run ex_cfg 0 ex_dead)).
Proof.
  exists [(sec 10, IPing); (sec 13, ITick); (sec 13, IAck); (sec 20, IPing); (sec 23, ITick);
          (sec 23, IAck)], [(sec 34, IClose); (sec 40, ITick)].
  vm_compute. repeat split; reflexivity.
Qed.

(* the acknowledgement arrives exactly `timeout` after the ping: processed before the timer of the
   same instant it saves the connection, after it the connection is closed *)
Example ex_ack_at_timeout_before_timer :
  snd (run ex_cfg 0 [T 10; Tick (sec 14) false false; Ack; T 14; T 15]) =
  [(sec 10, IPing); (sec 14, ITick); (sec 14, IAck); (sec 14, ITick); (sec 15, ITick)].
Proof. vm_compute. reflexivity. Qed.

Example ex_ack_at_timeout_after_timer :
  snd (run ex_cfg 0 [T 10; T 14; Ack; T 15]) =
  [(sec 10, IPing); (sec 14, IClose); (sec 14, IAck); (sec 15, ITick)].
Proof. vm_compute. reflexivity. Qed.

(* ping timer and close timer due at the same instant (timeout = time): both orders *)
Definition ex_tie : cfg := mkCfg true (sec 10) (sec 10) true 0 (sec 1).
Example ex_tie_close_first :
  snd (run ex_tie 0 [T 10; Tick (sec 20) true true; T 30]) =
  [(sec 10, IPing); (sec 20, IClose); (sec 30, ITick)].
Proof. vm_compute. reflexivity. Qed.
Example ex_tie_ping_first :
  snd (run ex_tie 0 [T 10; Tick (sec 20) true false; T 30]) =
  [(sec 10, IPing); (sec 20, IPing); (sec 20, IClose); (sec 30, ITick)].
Proof. vm_compute. reflexivity. Qed.

(* the DEFAULT server configuration (7200 s / 20 s, calls required, 2 pings without data, 300 s):
   one call in flight, the peer never answers: one ping at 7200 s, closed at 7220 s *)
Definition ex_server : cfg := mkCfg true (sec 7200) (sec 20) false 2 (sec 300).

Example ex_server_is_default : default_cfg RServer = Some ex_server.
Proof. vm_compute. reflexivity. Qed.

Example ex_server_silent_peer :
  snd (run ex_server 0 [StreamOpened; T 7200; T 7220; T 14400; T 20000]) =
  [(0, IOpen); (sec 7200, IPing); (sec 7220, IClose); (sec 14400, ITick); (sec 20000, ITick)].
Proof. vm_compute. reflexivity. Qed.

(* ... and without a call in flight the default configuration sends nothing (ISkip) *)
Example ex_server_idle :
  snd (run ex_server 0 [T 7200; T 14400; T 20000]) =
  [(sec 7200, ISkip); (sec 14400, ISkip); (sec 20000, ITick)].
Proof. vm_compute. reflexivity. Qed.

(* budget of 2 pings without data, live peer, a call in flight: the third ping is suppressed until
   data is sent; pings are 300 s apart although the timer fires every 100 s *)
Definition ex_budget : cfg := mkCfg true (sec 100) (sec 20) false 2 (sec 300).
Example ex_budget_log :
  ping_times (snd (run ex_budget 0
    [StreamOpened; T 100; Ack; T 200; T 300; T 400; Ack; T 500; T 600; T 700; T 800; DataSent;
     T 900; Ack; T 1000])) = [sec 100; sec 400; sec 900].
Proof. vm_compute. reflexivity. Qed.

(* the same budget on a call that only RECEIVES (a download): the application keeps consuming inbound
   data (Acked), which is not data sent: after two pings nothing more goes out *)
Example ex_budget_receiving :
  ping_times (snd (run ex_budget 0
    [StreamOpened; HeadersSent; T 50; Acked; T 100; Ack; Acked; T 200; Acked; T 300; Acked; T 400; Ack;
     Acked; T 500; Acked; T 600; Acked; T 700; Acked; T 800; Acked; T 900; Acked; T 1000; Acked;
     T 1100])) = [sec 100; sec 400].
Proof. vm_compute. reflexivity. Qed.

(* the client default: keepalive off *)
Example ex_client_default_off :
  exists c, default_cfg RClient = Some c /\ k_enabled c = false /\
            snd (run c 0 [StreamOpened; T 7200; T 20000]) =
            [(0, IOpen); (sec 7200, ITick); (sec 20000, ITick)].
Proof. eexists. split; [vm_compute; reflexivity|]. vm_compute. split; reflexivity. Qed.

(* the refutation witness, spelled out *)
Example ex_witness_log :
  snd (run wit_cfg 0 wit_evs) =
  [(sec 10, IPing); (sec 20, IPing); (sec 25, ITick); (sec 25, IAck); (sec 30, ISkip);
   (sec 40, ISkip); (sec 45, ITick)].
Proof. rewrite wit_run. reflexivity. Qed.
