(* C10 -- non-vacuity examples: concrete histories that satisfy the hypotheses of the theorems, by
   evaluation; a retry order and a finishing order that satisfy the fairness hypotheses. *)
From Coq Require Import ZArith List Bool Arith Lia.
From GV Require Import Model.Registry Proofs.C10Proofs.
Import ListNotations.
#[local] Open Scope Z_scope.

Definition allb (p : call -> bool) (s : state) : bool := forallb p (calls s).

(* a mixed history on one connection with limit 2: call 0 ok (unary), call 1 non-OK trailers + RST,
   call 2 waits for a slot, call 3 is cancelled by the client, everything exits *)
Definition mixed : list op :=
  [ COpenTry 0 false; COpenTry 1 false; COpenTry 2 false;      (* 2 blocks: limit 2 *)
    CSendEnd 0; DeliverC2S 0; DeliverC2S 0;
    STrailers 0 false; SExit 0 KOk; DeliverS2C 0; CExit 0;      (* call 0 ok; release wakes 2 *)
    COpenTry 2 false;                                           (* 2 proceeds *)
    DeliverC2S 1; SExit 1 KErr; DeliverS2C 1; DeliverS2C 1; CExit 1;
    COpenTry 3 false; CCancel 3; CExit 3; DeliverC2S 3; DeliverC2S 3; SExit 3 KErr;
    DeliverC2S 2; CPause; CExit 2; CResume; DeliverC2S 2; SExit 2 KBase ].

Example mixed_all_exited :
  let s := run mixed (init 4 2) in
  allb is_cexited s = true /\ allb (fun k => negb (is_running k)) s = true /\
  allb (fun k => match k_qc k with [] => true | _ => false end) s = true /\
  cpaused s = false /\
  creg s = [] /\ sreg s = [] /\ open_out s = 0%nat /\ open_in s = 0%nat.
Proof. vm_compute. repeat split; reflexivity. Qed.

Example mixed_outputs :
  firstn 3 (snd (run_out mixed (init 4 2))) = [OOpened; OOpened; OBlocked].
Proof. vm_compute. reflexivity. Qed.

(* the regression input of the repaired defect D17: limit 1, one long call, one waiter; the limit is
   raised to 5: the waiter is woken at that instant and starts *)
Definition d17 : list op :=
  [COpenTry 0 false; DeliverC2S 0; COpenTry 1 false; SSettings 5; DeliverSettings].

Example d17_waiter_blocked_then_woken :
  l_waiting (snap (run (firstn 3 d17) (init 2 1))) = [1%nat] /\
  quiescent (run (firstn 3 d17) (init 2 1)) = true /\
  l_waiting (snap (run d17 (init 2 1))) = [] /\ l_woken (snap (run d17 (init 2 1))) = [1%nat] /\
  snd (step (run d17 (init 2 1)) (COpenTry 1 false)) = OOpened.
Proof. vm_compute. repeat split; reflexivity. Qed.

(* the D4 witness: the handler ended, the client has ended its half, nothing is in flight -- and the
   stream still counts on both sides, so with limit 1 the next call can never start *)
Example d4_blocks_next_call :
  let s := run d4_witness (init 2 1) in
  quiescent s = true /\ l_leak (snap s) = [0%nat] /\
  snd (step s (COpenTry 1 false)) = OBlocked /\
  quiescent (fst (step s (COpenTry 1 false))) = true.
Proof. vm_compute. repeat split; reflexivity. Qed.

(* three runnable waiters, one slot: whoever runs first wins, the two others re-block; after the winner
   and the long call are released one after the other everybody has run *)
Definition three_waiters : state :=
  run [COpenTry 0 false; COpenTry 1 false; COpenTry 2 false; COpenTry 3 false; CExit 0] (init 4 1).

Example three_waiters_hyp :
  l_woken (snap three_waiters) = [1; 2; 3]%nat /\ (Z.of_nat (open_out three_waiters) + 1 = maxc three_waiters).
Proof. vm_compute. split; reflexivity. Qed.

Example three_waiters_any_first :
  l_opened (snap (retry [(2%nat, false); (1%nat, false); (3%nat, false)] three_waiters)) = [2%nat] /\
  l_waiting (snap (retry [(2%nat, false); (1%nat, false); (3%nat, false)] three_waiters)) = [1; 3]%nat.
Proof. vm_compute. split; reflexivity. Qed.

Definition ord_all (s : state) : list (nat * bool) :=
  map (fun c => (c, false)) (rev (idx_where is_nw (calls s))).
Definition pick_first (s : state) : option nat := hd_error (idx_where is_opened (calls s)).

Example three_waiters_all_proceed :
  phi three_waiters = 6%nat /\
  pending_count (rounds 6 ord_all pick_first three_waiters) = 0%nat /\
  opened_count (rounds 6 ord_all pick_first three_waiters) = 0%nat /\
  allb is_cexited (rounds 6 ord_all pick_first three_waiters) = true.
Proof. vm_compute. repeat split; reflexivity. Qed.

(* the two scheduling parameters of the example satisfy the fairness hypotheses *)
Lemma idx_where_from_in {A} (p : A -> bool) l i c :
  In c (idx_where_from p i l) <->
  exists j k, c = (i + j)%nat /\ nth_error l j = Some k /\ p k = true.
Proof.
  revert i c; induction l as [|x r IH]; intros i c; simpl.
  - split; [intros []|]. intros (j & k & _ & E & _). destruct j; discriminate.
  - rewrite in_app_iff, IH. split.
    + intros [H|(j & k & -> & E & P)].
      * destruct (p x) eqn:Px; [|inversion H]. destruct H as [<-|[]].
        exists 0%nat, x. repeat split; auto.
      * exists (S j), k. repeat split; auto. lia.
    + intros ([|j] & k & -> & E & P); simpl in E.
      * left. inversion E; subst x. rewrite P. left. lia.
      * right. exists j, k. repeat split; auto. lia.
Qed.

Lemma idx_where_in {A} (p : A -> bool) l c :
  In c (idx_where p l) <-> exists k, nth_error l c = Some k /\ p k = true.
Proof.
  unfold idx_where. rewrite idx_where_from_in. split.
  - intros (j & k & -> & E & P); eauto.
  - intros (k & E & P); exists c, k; repeat split; auto.
Qed.

Lemma ord_all_fair : fair_ord ord_all.
Proof.
  intros s c H. unfold ord_all. rewrite map_map. simpl. rewrite map_id.
  rewrite <- in_rev. apply idx_where_in. exact H.
Qed.

Lemma pick_first_fair : fair_pick pick_first.
Proof.
  split.
  - intros s c H. unfold pick_first in H. destruct (idx_where is_opened (calls s)) as [|x r] eqn:E; [discriminate|].
    simpl in H; inversion H; subst x. apply idx_where_in. rewrite E. left; reflexivity.
  - intros s H. unfold pick_first in H. destruct (idx_where is_opened (calls s)) as [|x r] eqn:E; [|discriminate].
    unfold opened_count. apply count_zero. intros c k E1. destruct (is_opened k) eqn:O; auto.
    exfalso. apply (@in_nil _ c). rewrite <- E. apply idx_where_in; eauto.
Qed.
