(* Non-vacuity examples for C09: concrete scenarios that satisfy the hypotheses of the theorems.
   Everything is decided by vm_compute. *)
From Coq Require Import List Bool Arith.
From GV Require Import Model.ServerLife Proofs.C09Proofs.
Import ListNotations.

(* two connections (one idle), three handlers: one reset by its client while it waits for a message,
   one sleeping, one blocked in send_message; then Server.close(), wait_closed(), the connections drop *)
Definition ex_ops : list op :=
  [Start; Connect; Connect; Connect;
   Open 0 0 [AR; AS] (Honour 2) false; Open 0 1 [AS; AS] (Honour 1) true; Open 1 0 [AW] Swallow false;
   Run 0 0; Run 0 1; Run 1 0;
   Rst 0 0; Run 0 0;                       (* 0.0 enters its 2-step cleanup *)
   Tick; Run 0 0; Run 0 1; Tick; Run 0 0; Run 0 1;   (* 0.0 finishes its cleanup, 0.1 ends normally *)
   SrvClose; WaitClosed; Run 1 0;           (* 1.0 swallows the cancellation and returns *)
   Lost 0; Lost 1; Lost 2; RunW; RunW; RunW].

Definition ex_s : state := run_ops ex_ops init.

Example ex_calm : calm ex_ops init.
Proof.
  vm_compute. repeat split; intros; try discriminate;
    repeat (match goal with H : _ \/ _ |- _ => destruct H end); subst; try reflexivity; try contradiction.
Qed.

Example ex_final :
  map (fun t => (tc t, ti t, ph t, ncancel t, nhit t, cleanup_done t, registered t, nrel t)) (tasks ex_s) =
  [(0, 0, Finished, 1, 0, true, false, 1); (0, 1, Finished, 0, 0, false, false, 1);
   (1, 0, Finished, 1, 0, false, false, 1)] /\ wst ex_s = WDone.
Proof. vm_compute. split; reflexivity. Qed.

(* hypotheses of single_cause_one_delivery: a running task without a pending cancel, then a cause *)
Example ex_single_cause :
  let s := run_ops [Start; Connect; Open 0 0 [AR; AS] (Honour 2) false; Run 0 0] init in
  exists t, In t (tasks s) /\ started_t t = true /\ cancel_req t = false /\ is_cause (Rst 0 0) = true /\
            forallb (fun o => negb (is_cause o)) [Run 0 0; Tick; Msg 0 0; Run 0 0; Tick; Run 0 0] = true.
Proof. vm_compute. eexists. split; [left; reflexivity|]. repeat split; reflexivity. Qed.

(* hypotheses of wait_closed_live *)
Example ex_wait_live :
  let s := run_ops [Start; Connect; Open 0 0 [AS] (Honour 0) false; Run 0 0; SrvClose; WaitClosed;
                    Run 0 0; Lost 0] init in
  wait_started (wst s) = true /\ latch (srv s) = true /\ listening (srv s) = false /\
  all_lost (conns s) = true /\ forallb (fun t => negb (unfinished t)) (tasks s) = true.
Proof. vm_compute. repeat split; reflexivity. Qed.

(* the witness of cancelled_once_refuted, step by step: phase, cancels seen, of which in the cleanup *)
Example ex_d20_trace :
  map (fun n => match find_task 0 0 (tasks (run_ops (firstn n d20_ops) init)) with
                | Some t => Some (ph t, ncancel t, nhit t, cleanup_done t, late t)
                | None => None end) [4; 5; 6; 7; 8] =
  [Some (Running AS [], 0, 0, false, false);      (* sleeping *)
   Some (Running AS [], 0, 0, false, false);      (* Server.close(): cancel requested *)
   Some (Cleanup 1, 1, 0, false, false);          (* CancelledError at the sleep: cleanup starts *)
   Some (Cleanup 1, 1, 0, false, true);           (* connection_lost: cancelled again, in the cleanup *)
   Some (Finished, 2, 1, false, true)].           (* second CancelledError: cleanup abandoned *)
Proof. vm_compute. reflexivity. Qed.

(* the only second cause that is applied and does NOT land: RST (pop from _tasks) then Server.close() *)
Example ex_rst_then_srvclose_safe : pair_lands CRst CSrvClose = false /\ pair_lands CSrvClose CRst = true.
Proof. vm_compute. split; reflexivity. Qed.

(* the window of the repaired D91, step by step: the reset finds the stream registered but the task
   collected; nothing happens to it, and the done-callback then releases the stream *)
Example ex_gc_window :
  let s0 := run_ops (removelast (removelast gc_window_ops)) init in
  let s1 := run_ops (removelast gc_window_ops) init in
  let s2 := run_ops gc_window_ops init in
  (exists t, find_task 0 8 (tasks s0) = Some t /\ ph t = Finished /\ registered t = true /\
             cb_pending t = true /\ in_tasks t = false /\ h2reset t = false) /\
  (exists t, find_task 0 8 (tasks s1) = Some t /\ ph t = Finished /\ registered t = true /\
             cancel_req t = false /\ in_cancelled t = false) /\
  conns s1 = conns s0 /\
  (exists t, find_task 0 8 (tasks s2) = Some t /\ registered t = false /\ nrel t = 1 /\ ncancel t = 0).
Proof. vm_compute. repeat split; try (eexists; repeat split; reflexivity). Qed.

(* graceful_exit *)
Example ex_graceful :
  fold_left (fun st sg => exit_handler sg st) [2; 15; 2] (mkGS [mkG true 0; mkG true 0] false []) =
  mkGS [mkG true 1; mkG true 1] true [130; 143] /\
  fold_left (fun st sg => exit_handler sg st) [2] (mkGS [mkG true 0; mkG false 0] false []) =
  mkGS [mkG true 1; mkG false 0] false [130].
Proof. vm_compute. split; reflexivity. Qed.

(* two tasks inside one wrapper, leaving in the order they entered (not LIFO): the one still inside is
   cancelled, the one that left is not, a later entry is refused *)
Example ex_wrapper_two_tasks :
  let w := wrun [WEnter 0; WEnter 1; WExit 0; WEnter 0; WExit 0; WCancel; WEnter 2] in
  wcancelled w = [1] /\ wrefused w = [2] /\ wspec 1 [WEnter 0; WEnter 1; WExit 0; WEnter 0; WExit 0] = true.
Proof. vm_compute. repeat split; reflexivity. Qed.
