(* Proofs for Props/C08.v: the receive-credit ledger of Model/RecvLedger.v.  What an event does to the registry and
   to the sums is said once (`effect`: it opens a stream, leaves the registry alone, or appends to and pops from one
   buffer, `bufop`); that every step keeps the books (`accounts`) follows from it, and the theorems about histories
   from that.  The theorems about one Read, Release or Data step say exactly what that step yields, which `effect`
   does not: they compute it from `step`. *)
From Coq Require Import ZArith List Bool Lia ZifyBool.
From GV Require Import Gen.Facts Model.RecvLedger.
Import ListNotations.
Open Scope Z_scope.

(* `total f`, `qsum`, `lsum`, `queued_conn`, `held_conn` and `forfeited_conn` all unfold to this *)
Definition sumof {A} (g : A -> Z) (l : list A) : Z := fold_right (fun x a => g x + a) 0 l.

Lemma sumof_app {A} (g : A -> Z) a b : sumof g (a ++ b) = sumof g a + sumof g b.
Proof. unfold sumof. induction a as [|x a IH]; cbn [app fold_right]; lia. Qed.

Lemma sumof_nonneg {A} (g : A -> Z) l : Forall (fun x => 0 <= g x) l -> 0 <= sumof g l.
Proof. unfold sumof. induction 1; cbn [fold_right]; lia. Qed.

Lemma sumof_zero {A} (g : A -> Z) l : Forall (fun x => g x = 0) l -> sumof g l = 0.
Proof. unfold sumof. induction 1; cbn [fold_right]; lia. Qed.

Lemma total_app f a b : total f (a ++ b) = total f a + total f b.
Proof. exact (sumof_app f a b). Qed.

Lemma qsum_app a b : qsum (a ++ b) = qsum a + qsum b.
Proof. exact (sumof_app it_ack a b). Qed.

Lemma lsum_app a b : lsum (a ++ b) = lsum a + lsum b.
Proof. exact (sumof_app it_len a b). Qed.

Definition q_ok (q : list item) : Prop := Forall (fun it => 0 <= it_ack it) q.

Lemma qsum_nonneg q : q_ok q -> 0 <= qsum q.
Proof. exact (sumof_nonneg it_ack q). Qed.

(* The ledger of the streams selected by p.  With p = (fun s => s =? x) these are, by conversion, `received x` and
   `credited x`; with p = (fun _ => true) they are `received_conn` and `credited_conn`.  Every fact about the ledger
   is proved once, for all p. *)
Definition recvP (p : Z -> bool) (o : out) : Z := match o with ORecv s k => if p s then k else 0 | _ => 0 end.
Definition credP (p : Z -> bool) (o : out) : Z := match o with OAck s k => if p s then k else 0 | _ => 0 end.
Definition recvd (p : Z -> bool) : list out -> Z := total (recvP p).
Definition cred (p : Z -> bool) : list out -> Z := total (credP p).

(* o records r bytes received and c bytes credited, all of them for stream sid *)
Definition moves (sid r c : Z) (o : list out) : Prop :=
  forall p, recvd p o = (if p sid then r else 0) /\ cred p o = (if p sid then c else 0).

Lemma moves_stream sid r c o x : moves sid r c o ->
  received x o = (if sid =? x then r else 0) /\ credited x o = (if sid =? x then c else 0).
Proof. intros H. exact (H (fun s => s =? x)). Qed.

Lemma moves_conn sid r c o : moves sid r c o -> received_conn o = r /\ credited_conn o = c.
Proof. intros H. exact (H (fun _ => true)). Qed.

Lemma moves_nil sid : moves sid 0 0 [].
Proof. intros p. destruct (p sid); split; reflexivity. Qed.

Lemma moves_app sid r1 c1 o1 r2 c2 o2 r c :
  moves sid r1 c1 o1 -> moves sid r2 c2 o2 -> r = r1 + r2 -> c = c1 + c2 -> moves sid r c (o1 ++ o2).
Proof.
  intros H1 H2 -> -> p. specialize (H1 p). specialize (H2 p). unfold recvd, cred in *. rewrite !total_app.
  destruct H1 as [-> ->], H2 as [-> ->]. destruct (p sid); split; reflexivity.
Qed.

Definition about (sid : Z) (x : out) : Prop := match x with ORecv s _ | OAck s _ => s = sid | _ => True end.

Lemma moves_one sid x : about sid x -> moves sid (recvA x) (credA x) [x].
Proof. intros H p. destruct x; cbn in *; subst; destruct (p sid); split; lia. Qed.

Lemma moves_ack_out sid k : moves sid 0 k (ack_out sid k).
Proof.
  unfold ack_out. destruct (Z.eqb_spec k 0) as [->|]; [apply moves_nil|exact (moves_one sid (OAck sid k) eq_refl)].
Qed.

Lemma moves_acks_of sid q : moves sid 0 (qsum q) (acks_of sid q).
Proof.
  induction q as [|it q IH]; [apply moves_nil|].
  exact (moves_app _ _ _ _ _ _ _ _ _ (moves_ack_out sid (it_ack it)) IH eq_refl eq_refl).
Qed.

Lemma moves_recv_ack sid f : moves sid f f (ORecv sid f :: ack_out sid f).
Proof.
  apply (moves_app _ _ _ [_] _ _ _ _ _ (moves_one sid (ORecv sid f) eq_refl) (moves_ack_out sid f)); cbn [recvA credA]; lia.
Qed.

Lemma moves_credited sid r c o : moves sid r c o ->
  credited sid o = c /\ credited_conn o = c /\ (forall x, x <> sid -> credited x o = 0).
Proof.
  intros H. split; [|split; [apply (moves_conn _ _ _ _ H)|intros x Hx]].
  - destruct (moves_stream _ _ _ _ sid H) as [_ ->]. rewrite Z.eqb_refl. reflexivity.
  - destruct (moves_stream _ _ _ _ x H) as [_ ->]. destruct (Z.eqb_spec sid x); congruence.
Qed.

Lemma moves_uncredited sid r o : moves sid r 0 o -> (forall x, credited x o = 0) /\ credited_conn o = 0.
Proof.
  intros H. split; [intros x|apply (moves_conn _ _ _ _ H)].
  destruct (moves_stream _ _ _ _ x H) as [_ ->]. destruct (sid =? x); reflexivity.
Qed.

Definition keys (r : registry) : list Z := map fst r.

Lemma lookup_not_in x r : ~ In x (keys r) -> lookup x r = None.
Proof.
  induction r as [|[k b] r IH]; cbn [lookup keys map fst In]; intros H; [reflexivity|].
  destruct (Z.eqb_spec k x); [tauto|apply IH; tauto].
Qed.

Lemma lookup_in x b r : lookup x r = Some b -> In (x, b) r.
Proof.
  induction r as [|[k b0] r IH]; cbn [lookup In]; [discriminate|].
  destruct (Z.eqb_spec k x) as [->|]; [intros [= ->]|]; auto.
Qed.

Lemma remove_cons x k b r :
  remove x ((k, b) :: r) = if k =? x then remove x r else (k, b) :: remove x r.
Proof. unfold remove. cbn [filter fst]. destruct (k =? x); reflexivity. Qed.

Lemma lookup_remove x y r : lookup x (remove y r) = if x =? y then None else lookup x r.
Proof.
  induction r as [|[k b] r IH]; [cbn; destruct (x =? y); reflexivity|].
  rewrite remove_cons. destruct (Z.eqb_spec k y); cbn [lookup]; rewrite IH;
    destruct (Z.eqb_spec k x), (Z.eqb_spec x y); congruence.
Qed.

Lemma lookup_set x y b r : lookup x (set y b r) = if y =? x then Some b else lookup x r.
Proof.
  unfold set. cbn [lookup]. rewrite lookup_remove. destruct (Z.eqb_spec y x), (Z.eqb_spec x y); congruence.
Qed.

Lemma lookup_live_some sid r b : lookup_live sid r = Some b -> lookup sid r = Some b /\ brel b = false.
Proof.
  unfold lookup_live. destruct (lookup sid r) as [b0|]; [|discriminate].
  destruct (brel b0) eqn:E; [discriminate|]. intros [= <-]. auto.
Qed.

Lemma lookup_live_of sid r b : lookup sid r = Some b -> brel b = false -> lookup_live sid r = Some b.
Proof. intros H1 H2. unfold lookup_live. rewrite H1, H2. reflexivity. Qed.

Lemma lookup_live_set x y b r :
  lookup_live x (set y b r) = if y =? x then (if brel b then None else Some b) else lookup_live x r.
Proof. unfold lookup_live. rewrite lookup_set. destruct (y =? x); reflexivity. Qed.

Lemma queued_set x sid b r c : queued x (mkSt (set sid b r) c) = if sid =? x then qsum (bq b) else queued x (mkSt r c).
Proof. unfold queued. cbn [reg]. rewrite lookup_set. destruct (sid =? x); reflexivity. Qed.

Lemma queued_remove x sid r c : queued x (mkSt (remove sid r) c) = if x =? sid then 0 else queued x (mkSt r c).
Proof. unfold queued. cbn [reg]. rewrite lookup_remove. destruct (x =? sid); reflexivity. Qed.

(* `set` keeps the keys of the registry distinct, so the connection-level sums count every buffer once *)
Lemma keys_remove x r : keys (remove x r) = filter (fun k => negb (k =? x)) (keys r).
Proof.
  unfold keys. induction r as [|[k b] r IH]; [reflexivity|]. rewrite remove_cons. cbn [map fst filter].
  destruct (k =? x); cbn [negb map fst]; rewrite IH; reflexivity.
Qed.

Lemma NoDup_set x b r : NoDup (keys r) -> NoDup (keys (set x b r)).
Proof.
  intros H. change (NoDup (x :: keys (remove x r))). rewrite keys_remove.
  constructor; [rewrite filter_In, Z.eqb_refl; intros [_ [=]]|apply NoDup_filter, H].
Qed.

(* credit queued in the buffers of the streams selected by p; `queued_conn s` is `queuedP (fun _ => true) (reg s)` *)
Definition queuedP (p : Z -> bool) : registry -> Z := sumof (fun e => if p (fst e) then qsum (bq (snd e)) else 0).

Lemma queuedP_cons p k b r : queuedP p ((k, b) :: r) = (if p k then qsum (bq b) else 0) + queuedP p r.
Proof. reflexivity. Qed.

Lemma queuedP_remove p x s : NoDup (keys (reg s)) ->
  queuedP p (reg s) = (if p x then queued x s else 0) + queuedP p (remove x (reg s)).
Proof.
  unfold queued. induction (reg s) as [|[k b] r IH]; intros Hnd; [destruct (p x); reflexivity|].
  inversion Hnd as [|? ? Hnin Hnd']; subst. rewrite remove_cons, queuedP_cons, (IH Hnd'). cbn [lookup].
  destruct (Z.eqb_spec k x) as [->|]; [|rewrite queuedP_cons; lia]. rewrite (lookup_not_in x r Hnin). destruct (p x); lia.
Qed.

Lemma queuedP_set p x b s : NoDup (keys (reg s)) ->
  queuedP p (set x b (reg s)) + (if p x then queued x s else 0) = queuedP p (reg s) + (if p x then qsum (bq b) else 0).
Proof. intros Hnd. unfold set. rewrite queuedP_cons, (queuedP_remove p x s Hnd). lia. Qed.

Lemma queuedP_only x s : NoDup (keys (reg s)) -> queuedP (fun k => k =? x) (reg s) = queued x s.
Proof.
  intros Hnd. rewrite (queuedP_remove _ x s Hnd), Z.eqb_refl.
  assert (queuedP (fun k => k =? x) (remove x (reg s)) = 0) as -> by
    (apply sumof_zero, Forall_forall; intros e He; apply filter_In in He as [_ He];
     destruct (fst e =? x); [discriminate|reflexivity]).
  lia.
Qed.

(* a property of every buffer there is, registered or released *)
Definition all_bufs (P : buf -> Prop) (r : registry) : Prop := Forall (fun e => P (snd e)) r.

Lemma all_bufs_lookup P x b r : all_bufs P r -> lookup x r = Some b -> P b.
Proof. intros H Hl. apply lookup_in in Hl. exact (proj1 (Forall_forall _ _) H _ Hl). Qed.

Lemma all_bufs_set P x b r : all_bufs P r -> P b -> all_bufs P (set x b r).
Proof. intros H Hb. constructor; [exact Hb|]. exact (incl_Forall (incl_filter _ _) H). Qed.

Lemma held_forfeited x s : held x s + forfeited x s = queued x s.
Proof.
  unfold held, forfeited, queued, lookup_live. destruct (lookup x (reg s)) as [b|]; [destruct (brel b)|]; lia.
Qed.

Lemma held_forfeited_conn s : held_conn s + forfeited_conn s = queued_conn s.
Proof.
  unfold held_conn, forfeited_conn, queued_conn. induction (reg s) as [|[k b] r IH]; cbn [fold_right snd]; [lia|].
  destruct (brel b); lia.
Qed.

(* every popped item was needed, and only the last one can be the EOF marker *)
Lemma pump_spec q : forall acked size p r a stt,
  pump q acked size = (p, r, a, stt) ->
  q = p ++ r /\
  (forall p1 x p2, p = p1 ++ x :: p2 -> acked + lsum p1 < size /\ (it_ack x = 0 -> p2 = [] /\ stt = PBreak)) /\
  match stt with
  | PEnough => size <= a /\ a = acked + lsum p
  | PBreak => exists p0 m, p = p0 ++ [m] /\ it_ack m = 0 /\ a = acked + lsum p0 /\ a < size
  | PBlocked => r = [] /\ a = acked + lsum p /\ a < size
  end.
Proof.
  induction q as [|it q IH]; intros acked size p r a stt H; cbn [pump] in H; destruct (acked <? size) eqn:E.
  (* nothing is popped: the queue is empty, or there is enough already *)
  1, 2, 4: injection H as <- <- <- <-; split; [reflexivity|]; split; [intros [|? ?] ? ? [=]|];
    cbn [lsum fold_right]; repeat split; lia.
  destruct (it_ack it =? 0) eqn:Ez.
  - injection H as <- <- <- <-. split; [reflexivity|]. split.
    + intros [|? [|? ?]] x p2 [= <- <-]. cbn [lsum fold_right]. repeat split; lia.
    + exists [], it. cbn [app lsum fold_right]. repeat split; lia.
  - destruct (pump q (acked + it_len it) size) as [[[p' r'] a'] st'] eqn:Hrec. injection H as <- <- <- <-.
    destruct (IH _ _ _ _ _ _ Hrec) as (-> & Hmin & Hst). unfold lsum in *. split; [reflexivity|]. split.
    + intros [|y p1] x p2 Hp; injection Hp as <- Hp; cbn [fold_right]; [split; [|intros ?; exfalso]; lia|].
      destruct (Hmin _ _ _ Hp) as [Hlt Hz]. split; [lia|exact Hz].
    + cbn [fold_right]. destruct st'; cbv iota in Hst; [lia| |destruct Hst as (-> & Hst); split; [reflexivity|lia]].
      destruct Hst as (p0 & m & -> & Hm & Ha & Hlt). exists (it :: p0), m. cbn [fold_right]. repeat split; [exact Hm|lia..].
Qed.

Lemma finish_frame q a e rl size b' res :
  finish q a e rl size = (b', res) -> bq b' = q /\ bpend b' = None /\ brel b' = rl.
Proof. unfold finish. destruct (e && (a =? 0)); [|destruct (a <? size)]; intros [= <- _]; auto. Qed.

Lemma finish_pend q a e rl size b' res : finish q a e rl size = (b', res) -> bpend b' = None.
Proof. intros H. apply (finish_frame _ _ _ _ _ _ _ H). Qed.

(* why the loop of Buffer.read stopped after popping p and leaving r *)
Definition stop_reason (b : buf) (size : Z) (p r : list item) : Prop :=
  r = [] \/ size <= backed b + lsum p \/ exists p0 m, p = p0 ++ [m] /\ it_ack m = 0.

(* a read that wants `size` bytes pops the prefix p of the queue, acknowledges exactly p, and leaves the rest *)
Definition reads (sid : Z) (b : buf) (size : Z) (b' : buf) (o : list out) : Prop :=
  exists p, bq b = p ++ bq b' /\ brel b' = brel b /\ moves sid 0 (qsum p) o /\
    (forall p1 it p2, p = p1 ++ it :: p2 -> backed b + lsum p1 < size) /\ stop_reason b size p (bq b').

Lemma read_loop_reads sid b size b' o : read_loop sid b size = (b', o) -> reads sid b size b' o.
Proof.
  unfold read_loop. destruct (pump (bq b) (backed b) size) as [[[p r] a] stt] eqn:Hp.
  destruct (pump_spec _ _ _ _ _ _ _ Hp) as (Hq & Hmin & Hst).
  (* what follows the loop unless it blocked *)
  destruct (finish r a (beof b) (brel b) size) as [b1 res] eqn:Hf.
  destruct (finish_frame _ _ _ _ _ _ _ Hf) as (Hq1 & _ & Hr1). intros H. exists p.
  assert (Hb' : bq b' = r /\ brel b' = brel b /\ moves sid 0 (qsum p) o).
  { destruct stt; injection H as <- <-; (split; [|split]); try assumption; try reflexivity;
      (eapply moves_app; [apply moves_acks_of|apply moves_one; exact I|reflexivity|symmetry; apply Z.add_0_r]). }
  destruct Hb' as (-> & Hr & Hm). repeat (split; [assumption|]). split.
  - intros p1 it p2 Hpp. apply (Hmin _ _ _ Hpp).
  - unfold stop_reason. destruct stt; [right; left; lia| |left; apply Hst].
    right. right. destruct Hst as (p0 & m & Hpp & Hm' & _). exists p0, m. auto.
Qed.

(* what every operation of a reader (read, resumed read, cancelled read) does to the buffer and to the ledger *)
Definition pops (sid : Z) (b b' : buf) (o : list out) : Prop :=
  exists p, bq b = p ++ bq b' /\ brel b' = brel b /\ moves sid 0 (qsum p) o.

Lemma reads_pops sid b size b' o : reads sid b size b' o -> pops sid b b' o.
Proof. intros (p & Hq & Hr & Hm & _). exists p. auto. Qed.

Lemma pops_same sid b b' o : bq b' = bq b -> brel b' = brel b -> moves sid 0 0 o -> pops sid b b' o.
Proof. intros Hq Hr Hm. exists []. rewrite Hq. auto. Qed.

Lemma buf_read_spec sid b size b' o : buf_read sid b size = (b', o) ->
  pops sid b b' o /\ (bpend b = None -> 0 < size -> reads sid b size b' o).
Proof.
  unfold buf_read. destruct (bpend b); [|destruct (size <? 0) eqn:E1; [|destruct (size =? 0) eqn:E2]];
    (* a read is pending already, or size < 1: answered at once, nothing popped *)
    [intros [= <- <-]; (split; [|intros; try discriminate; exfalso; lia]);
     apply pops_same; try reflexivity; exact (moves_one sid (ORead sid _) I) ..|].
  intros H. cut (reads sid b size b' o); [intros Hr; split; [exact (reads_pops _ _ _ _ _ Hr)|auto]|].
  destruct (beof b && is_nil (bq b)) eqn:E3; [|apply read_loop_reads, H].
  (* EOF seen and the queue is empty: the loop is not entered *)
  destruct (finish (bq b) (backed b) (beof b) (brel b) size) as [b1 res] eqn:Hf. injection H as <- <-.
  destruct (finish_frame _ _ _ _ _ _ _ Hf) as (Hq1 & _ & Hr1).
  apply andb_true_iff in E3 as [_ E3]. destruct (bq b) as [|it q] eqn:Hq; [|discriminate].
  exists []. rewrite Hq, Hq1. split; [reflexivity|]. split; [exact Hr1|]. split; [exact (moves_one sid (ORead sid _) I)|].
  split; [intros [|? ?] ? ? [=]|left; reflexivity].
Qed.

Lemma buf_wake_spec sid b b' o : buf_wake sid b = (b', o) ->
  pops sid b b' o /\ (forall size, bpend b = Some size -> bq b <> [] -> reads sid b size b' o).
Proof.
  unfold buf_wake. destruct (bpend b) as [size|]; [destruct (bq b) eqn:Hq|]; cbn [is_nil].
  (* the queue is still empty, or no read is suspended: nothing happens *)
  1, 3: intros [= <- <-]; (split; [|intros; try discriminate; contradiction]);
    apply pops_same; try reflexivity; apply moves_nil.
  intros H. apply read_loop_reads in H. split; [exact (reads_pops _ _ _ _ _ H)|]. intros ? [= <-] _. exact H.
Qed.

(* a released buffer has been emptied (false only after a release on a closing connection) *)
Definition drained (b : buf) : Prop := brel b = true -> bq b = [].

(* an operation on the buffer of stream sid appends a to its queue and pops p from the front; what is appended has
   been received, what is popped is acknowledged *)
Definition bufop (s : st) (e : event) (sid : Z) (b b' : buf) (o : list out) : Prop :=
  exists a p, bq b ++ a = p ++ bq b' /\ moves sid (qsum a) (qsum p) o /\
              (event_ok e = true -> q_ok a) /\ (closing s = false -> drained b -> drained b').

Lemma pops_bufop s e sid b b' o : pops sid b b' o -> bufop s e sid b b' o.
Proof.
  intros (p & Hq & Hr & Hm). exists [], p. rewrite app_nil_r. split; [exact Hq|]. split; [exact Hm|]. split; [constructor|].
  intros _ Hd Hr'. rewrite Hr in Hr'. rewrite (Hd Hr') in Hq. symmetry in Hq. apply app_eq_nil in Hq. apply Hq.
Qed.

Lemma fcl_nonneg sid n pad : event_ok (Data sid n pad) = true -> 0 <= fcl n pad.
Proof. unfold event_ok, fcl. destruct pad; lia. Qed.

(* Buffer.add appends one item that carries the whole flow-controlled length, or nothing if that is 0 *)
Lemma buf_add_spec b n f :
  exists a, bq (buf_add b n f) = bq b ++ a /\ qsum a = f /\ (0 <= f -> q_ok a) /\ brel (buf_add b n f) = brel b.
Proof.
  unfold buf_add. destruct (f =? 0) eqn:E; [exists []|exists [mkItem n f]]; cbn [bq brel]; rewrite ?app_nil_r;
    repeat split; try (cbn; lia); repeat constructor; assumption.
Qed.

Lemma buf_add_op s sid n pad b : brel b = false ->
  bufop s (Data sid n pad) sid b (buf_add b n (fcl n pad)) [ORecv sid (fcl n pad)].
Proof.
  intros Hr. destruct (buf_add_spec b n (fcl n pad)) as (a & Hq & Ha & Hok & Hr'). exists a, [].
  rewrite Hq, Ha. split; [reflexivity|]. split; [exact (moves_one sid (ORecv sid _) eq_refl)|]. split.
  - intros He. apply Hok, (fcl_nonneg _ _ _ He).
  - intros _ _ H. rewrite Hr', Hr in H. discriminate.
Qed.

Lemma buf_eof_op s e sid b : brel b = false -> bufop s e sid b (buf_eof b) [].
Proof.
  intros Hr. exists [eof_marker], []. split; [reflexivity|]. split; [apply moves_nil|]. split; [repeat constructor; cbn; lia|].
  intros _ _ H. cbn [buf_eof brel] in H. rewrite Hr in H. discriminate.
Qed.

(* release_stream: acknowledges the whole queue and drains it, or (closing) leaves everything as it is *)
Lemma buf_release_op s e sid b :
  bufop s e sid b (buf_release (closing s) b)
        (if closing s then [ODrop sid (qsum (bq b))] else ack_out sid (qsum (bq b))).
Proof.
  exists [], (if closing s then [] else bq b). rewrite app_nil_r. unfold buf_release. cbn [bq].
  destruct (closing s).
  - split; [reflexivity|]. split; [exact (moves_one sid (ODrop sid _) I)|]. split; [constructor|discriminate].
  - split; [symmetry; apply app_nil_r|]. split; [apply moves_ack_out|]. split; [constructor|]. intros _ _ _. reflexivity.
Qed.

Inductive effect (s : st) (e : event) (s' : st) (o : list out) : Prop :=
| eff_open sid : e = Open sid -> reg s' = set sid new_buf (reg s) -> o = [] -> effect s e s' o
| eff_idle sid k : reg s' = reg s -> moves sid k k o -> (event_ok e = true -> 0 <= k) -> effect s e s' o
| eff_buf sid b b' : lookup sid (reg s) = Some b -> reg s' = set sid b' (reg s) -> bufop s e sid b b' o ->
                     effect s e s' o.

(* nothing is received or credited: the stream id of `eff_idle` is immaterial *)
Lemma eff_none s e s' : reg s' = reg s -> effect s e s' [].
Proof. intros H. apply (eff_idle _ _ _ _ 0 0); [exact H|apply moves_nil|lia]. Qed.

(* `with_buf` is this with m := lookup, `with_live_buf` with m := lookup_live *)
Lemma upd_effect s e sid (m : option buf) :
  (forall b, m = Some b -> lookup sid (reg s) = Some b) ->
  forall f dflt s' o,
  (forall b b' ob, m = Some b -> f b = (b', ob) -> bufop s e sid b b' ob) ->
  effect s e s dflt ->
  match m with
  | None => (s, dflt)
  | Some b => let '(b', ob) := f b in (mkSt (set sid b' (reg s)) (closing s), ob)
  end = (s', o) ->
  effect s e s' o.
Proof.
  intros Hm f dflt s' o Hf Hd. destruct m as [b|]; [|intros [= <- <-]; exact Hd].
  destruct (f b) as [b' ob] eqn:Hb. intros [= <- <-].
  apply (eff_buf _ _ _ _ sid b b' (Hm _ eq_refl)); [reflexivity|exact (Hf _ _ _ eq_refl Hb)].
Qed.

Definition with_buf_effect s e sid := upd_effect s e sid (lookup sid (reg s)) (fun b H => H).
Definition with_live_buf_effect s e sid :=
  upd_effect s e sid (lookup_live sid (reg s)) (fun b H => proj1 (lookup_live_some _ _ _ H)).

Lemma step_effect s e s' o : step s e = (s', o) -> effect s e s' o.
Proof.
  destruct e as [sid|sid n pad|sid|sid size|sid|sid|sid| | |]; cbn [step];
    try (intros [= <- <-]; now apply eff_none).   (* Close, Pause, Resume *)
  - (* Open *) intros [= <- <-]. now apply (eff_open _ _ _ _ sid).
  - (* Data *)
    apply with_live_buf_effect with (f := fun b => (buf_add b n (fcl n pad), [ORecv sid (fcl n pad)])).
    + intros b b' ob Hl [= <- <-]. apply buf_add_op, (lookup_live_some _ _ _ Hl).
    + apply (eff_idle _ _ _ _ sid (fcl n pad)); [reflexivity|apply moves_recv_ack|apply fcl_nonneg].
  - (* EndStream *)
    apply with_live_buf_effect; [|now apply eff_none].
    intros b b' ob Hl [= <- <-]. apply buf_eof_op, (lookup_live_some _ _ _ Hl).
  - (* Read *)
    apply with_buf_effect.
    + intros b b' ob _ Hb. apply pops_bufop, (buf_read_spec _ _ _ _ _ Hb).
    + apply (eff_idle _ _ _ _ sid 0); [reflexivity|exact (moves_one sid (ORead sid RNoStream) I)|lia].
  - (* Wake *)
    apply with_buf_effect; [|now apply eff_none].
    intros b b' ob _ Hb. apply pops_bufop, (buf_wake_spec _ _ _ _ Hb).
  - (* Cancel *)
    apply with_buf_effect; [|now apply eff_none].
    intros b b' ob _ [= <- <-]. apply pops_bufop, pops_same; try reflexivity. apply moves_nil.
  - (* Release *)
    apply with_live_buf_effect; [|now apply eff_none]. intros b b' ob _ [= <- <-]. apply buf_release_op.
Qed.

(* only Close ends the life of the connection *)
Lemma step_closing s e : closing (fst (step s e)) = false -> closing s = false.
Proof.
  destruct e as [sid|sid n pad|sid|sid size|sid|sid|sid| | |]; cbn [step]; unfold with_live_buf, with_buf.
  - auto.
  - destruct (lookup_live sid (reg s)); auto.
  - destruct (lookup_live sid (reg s)); auto.
  - destruct (lookup sid (reg s)) as [b|]; [destruct (buf_read sid b size)|]; auto.
  - destruct (lookup sid (reg s)) as [b|]; [destruct (buf_wake sid b)|]; auto.
  - destruct (lookup sid (reg s)); auto.
  - destruct (lookup_live sid (reg s)); auto.
  - discriminate.
  - auto.
  - auto.
Qed.

(* stream ids are distinct, and while the connection is live every released buffer is empty *)
Definition wf (s : st) : Prop := NoDup (keys (reg s)) /\ (closing s = false -> all_bufs drained (reg s)).

Lemma wf_init : wf init.
Proof. split; [constructor|intros _; constructor]. Qed.

Definition reg_ok : registry -> Prop := all_bufs (fun b => q_ok (bq b)).

Lemma queuedP_nonneg p r : reg_ok r -> 0 <= queuedP p r.
Proof.
  intros H. apply sumof_nonneg. revert H. apply Forall_impl. intros [k b] Hb. cbn [fst snd] in *.
  destruct (p k); [apply qsum_nonneg, Hb|lia].
Qed.

(* the condition `legal` puts on one event: no id is opened twice *)
Definition fresh (s : st) (e : event) : bool :=
  match e with Open sid => match lookup sid (reg s) with None => true | Some _ => false end | _ => true end.

(* The books kept from s to s' while emitting o.  `balanced`: no id was opened twice on the way (otherwise `Open`
   has overwritten a buffer and its credit is unreachable); `sized`: sizes were lengths. *)
Set Implicit Arguments.
Record accounts (s : st) (o : list out) (s' : st) (balanced sized : bool) : Prop := {
  acc_wf : wf s';
  acc_balance : balanced = true -> forall p, recvd p o + queuedP p (reg s) = cred p o + queuedP p (reg s');
  acc_bounds : reg_ok (reg s) -> sized = true ->
    reg_ok (reg s') /\
    forall p, 0 <= recvd p o /\ 0 <= cred p o /\ cred p o + queuedP p (reg s') <= recvd p o + queuedP p (reg s)
}.
Unset Implicit Arguments.

Lemma accounts_nil s : wf s -> accounts s [] s true true.
Proof.
  intros Hw. split; [exact Hw|intros _ p; cbn; lia|]. intros Hreg _. split; [exact Hreg|]. intros p. cbn. lia.
Qed.

Lemma accounts_app s o1 s1 l1 k1 o2 s2 l2 k2 :
  accounts s o1 s1 l1 k1 -> accounts s1 o2 s2 l2 k2 -> accounts s (o1 ++ o2) s2 (l1 && l2) (k1 && k2).
Proof.
  intros [_ B1 N1] [Hw B2 N2]. split; [exact Hw| |]; unfold recvd, cred in *.
  - intros Hl p. apply andb_true_iff in Hl as [Hl1 Hl2]. specialize (B1 Hl1 p). specialize (B2 Hl2 p). rewrite !total_app. lia.
  - intros Hreg Hk. apply andb_true_iff in Hk as [Hk1 Hk2].
    destruct (N1 Hreg Hk1) as [Hreg1 N1']. destruct (N2 Hreg1 Hk2) as [Hreg2 N2'].
    split; [exact Hreg2|]. intros p. specialize (N1' p). specialize (N2' p). rewrite !total_app. lia.
Qed.

Lemma step_inv s e s' o : step s e = (s', o) -> wf s -> accounts s o s' (fresh s e) (event_ok e).
Proof.
  intros H [Hnd Hdr]. pose proof (step_closing s e) as Hc. rewrite H in Hc.
  destruct (step_effect _ _ _ _ H) as [sid -> Hr ->|sid k Hr Hm Hk|sid b b' Hl Hr (a & q & Hq & Hm & Ha & Hd)].
  - (* a stream is opened *)
    assert (Hs := fun p => queuedP_set p sid new_buf s Hnd). cbn in Hs. split; unfold wf; rewrite Hr.
    + split; [apply NoDup_set, Hnd|intros Hc'; apply all_bufs_set; [auto|discriminate]].
    + intros Hf p. specialize (Hs p). unfold fresh, queued in *. destruct (lookup sid (reg s)); [discriminate|].
      cbn. destruct (p sid); lia.
    + intros Hreg _. split; [apply all_bufs_set; [exact Hreg|constructor]|].
      intros p. specialize (Hs p). unfold queued in Hs.
      destruct (lookup sid (reg s)) eqn:Hl; [pose proof (qsum_nonneg _ (all_bufs_lookup _ _ _ _ Hreg Hl))|];
        cbn; destruct (p sid); lia.
  - (* the registry is left alone *)
    split; unfold wf; rewrite Hr; [auto| |].
    + intros _ p. destruct (Hm p) as [-> ->]. lia.
    + intros Hreg Hev. specialize (Hk Hev). split; [exact Hreg|].
      intros p. destruct (Hm p) as [-> ->]. destruct (p sid); lia.
  - (* one buffer is operated on *)
    assert (Hs : forall p, recvd p o + queuedP p (reg s) = cred p o + queuedP p (set sid b' (reg s))).
    { intros p. pose proof (queuedP_set p sid b' s Hnd) as Hs. unfold queued in Hs. rewrite Hl in Hs.
      apply (f_equal qsum) in Hq. rewrite !qsum_app in Hq. destruct (Hm p) as [-> ->]. destruct (p sid); lia. }
    split; unfold wf; rewrite Hr.
    + split; [apply NoDup_set, Hnd|intros Hc'; specialize (Hdr (Hc Hc')); apply all_bufs_set; [exact Hdr|]].
      apply (Hd (Hc Hc')), (all_bufs_lookup _ _ _ _ Hdr Hl).
    + intros _. exact Hs.
    + intros Hreg Hev.
      assert (Hall : q_ok (q ++ bq b')).
      { rewrite <- Hq. apply Forall_app. split; [apply (all_bufs_lookup _ _ _ _ Hreg Hl)|apply Ha, Hev]. }
      apply Forall_app in Hall as [Hq1 Hq2]. pose proof (qsum_nonneg _ Hq1). pose proof (qsum_nonneg _ (Ha Hev)).
      split; [apply all_bufs_set; assumption|].
      intros p. specialize (Hs p). destruct (Hm p) as [Er Ec]. rewrite Er, Ec in *. destruct (p sid); lia.
Qed.

Lemma run_inv h : forall s s' o, run s h = (s', o) -> wf s -> accounts s o s' (legal s h) (forallb event_ok h).
Proof.
  induction h as [|e h IH]; intros s s' o H Hw; cbn [run] in H.
  - injection H as <- <-. apply accounts_nil, Hw.
  - destruct (step s e) as [s1 o1] eqn:Hs. destruct (run s1 h) as [s2 o2] eqn:Hr. injection H as <- <-.
    pose proof (step_inv _ _ _ _ Hs Hw) as A. cbn [legal forallb]. rewrite Hs. cbn [fst].
    exact (accounts_app _ _ _ _ _ _ _ _ _ A (IH _ _ _ Hr (acc_wf A))).
Qed.

Lemma run_app h1 : forall h2 s s1 o1 s2 o2,
  run s h1 = (s1, o1) -> run s1 h2 = (s2, o2) -> run s (h1 ++ h2) = (s2, o1 ++ o2).
Proof.
  induction h1 as [|e h1 IH]; intros h2 s s1 o1 s2 o2 H1 H2; cbn [run app] in *.
  - injection H1 as <- <-. exact H2.
  - destruct (step s e) as [sa oa]. destruct (run sa h1) as [sb ob] eqn:Hr. injection H1 as <- <-.
    rewrite (IH _ _ _ _ _ _ Hr H2), app_assoc. reflexivity.
Qed.

(* on a live connection nothing is left in released buffers: reading them again cannot credit anything *)
Lemma released_buffers_empty h s o : run init h = (s, o) -> closing s = false ->
  (forall x b, lookup x (reg s) = Some b -> brel b = true -> bq b = []) /\
  (forall x, forfeited x s = 0) /\ forfeited_conn s = 0.
Proof.
  intros H Hc. destruct (acc_wf (run_inv _ _ _ _ H wf_init)) as [_ Hd]. specialize (Hd Hc). split; [|split].
  - intros x b Hl. exact (all_bufs_lookup _ _ _ _ Hd Hl).
  - intros x. unfold forfeited. destruct (lookup x (reg s)) as [b|] eqn:Hl; [|reflexivity].
    destruct (brel b) eqn:Hr; [|reflexivity]. rewrite (all_bufs_lookup _ _ _ _ Hd Hl Hr). reflexivity.
  - apply sumof_zero. revert Hd. apply Forall_impl. intros [k b] Hb. unfold drained in Hb. cbn [snd] in *.
    destruct (brel b); [rewrite (Hb eq_refl)|]; reflexivity.
Qed.

(* never over-credited: no legality needed *)
Lemma never_overcredited_sel p h s o : forallb event_ok h = true -> run init h = (s, o) -> cred p o <= recvd p o.
Proof.
  intros Hev H. destruct (acc_bounds (run_inv _ _ _ _ H wf_init) (Forall_nil _) Hev) as [Hreg Ho].
  specialize (Ho p). pose proof (queuedP_nonneg p _ Hreg). cbn in Ho. lia.
Qed.

Lemma conservation_sel p h s o : legal init h = true -> run init h = (s, o) -> recvd p o = cred p o + queuedP p (reg s).
Proof.
  intros Hl H. pose proof (acc_balance (run_inv _ _ _ _ H wf_init) Hl p) as B. cbn in B. lia.
Qed.

(* conservation: received = credited + held (registered buffers) + forfeited (released buffers) *)
Lemma conservation h s o : legal init h = true -> run init h = (s, o) ->
  (forall x, received x o = credited x o + held x s + forfeited x s) /\
  received_conn o = credited_conn o + held_conn s + forfeited_conn s.
Proof.
  intros Hl H. destruct (acc_wf (run_inv _ _ _ _ H wf_init)) as [Hnd _]. split; [intros x|]; rewrite <- Z.add_assoc.
  - rewrite held_forfeited, <- (queuedP_only x s Hnd). exact (conservation_sel (fun k => k =? x) _ _ _ Hl H).
  - rewrite held_forfeited_conn. exact (conservation_sel (fun _ => true) _ _ _ Hl H).
Qed.

Lemma held_conn_none s : NoDup (keys (reg s)) -> (forall x, lookup_live x (reg s) = None) -> held_conn s = 0.
Proof.
  unfold held_conn. induction (reg s) as [|[k b] r IH]; intros Hnd H; [reflexivity|].
  inversion Hnd as [|? ? Hnin Hnd']; subst. cbn [fold_right snd]. rewrite (IH Hnd').
  - specialize (H k). unfold lookup_live in H. cbn [lookup] in H. rewrite Z.eqb_refl in H.
    destruct (brel b); [reflexivity|discriminate].
  - intros x. specialize (H x). unfold lookup_live in *. cbn [lookup] in H. destruct (Z.eqb_spec k x) as [E|]; [subst x|exact H].
    rewrite (lookup_not_in k r Hnin). reflexivity.
Qed.

(* no leak: on a connection that is still alive, a stream that is not registered (any more) has had all its
   credit returned, and when no stream is registered so has the connection *)
Lemma no_leak h s o : legal init h = true -> run init h = (s, o) -> closing s = false ->
  (forall x, lookup_live x (reg s) = None -> credited x o = received x o) /\
  ((forall x, lookup_live x (reg s) = None) -> credited_conn o = received_conn o).
Proof.
  intros Hl H Hc. destruct (conservation _ _ _ Hl H) as [C1 C2].
  destruct (released_buffers_empty _ _ _ H Hc) as (_ & F1 & F2). split.
  - intros x Hx. specialize (C1 x). rewrite F1 in C1. unfold held in C1. rewrite Hx in C1. lia.
  - intros Hreg. destruct (acc_wf (run_inv _ _ _ _ H wf_init)) as [Hnd _]. rewrite F2, (held_conn_none s Hnd Hreg) in C2. lia.
Qed.

(* credit only grows, and stays below what was received: together with no_leak, every received byte is
   credited exactly once *)
Lemma exactly_once h1 h2 s1 o1 s o :
  forallb event_ok (h1 ++ h2) = true -> legal init (h1 ++ h2) = true ->
  run init h1 = (s1, o1) -> run init (h1 ++ h2) = (s, o) -> closing s = false ->
  forall x, lookup_live x (reg s) = None ->
  credited x o1 <= received x o1 /\ received x o1 <= received x o /\ credited x o1 <= credited x o /\
  credited x o = received x o.
Proof.
  intros Hev Hl H1 H Hc x Hx. rewrite forallb_app in Hev. apply andb_true_iff in Hev as [Hev1 Hev2].
  destruct (run s1 h2) as [s2 o2] eqn:H2. pose proof (run_app _ _ _ _ _ _ _ H1 H2) as Hrun.
  rewrite Hrun in H. injection H as <- <-.
  pose proof (never_overcredited_sel (fun k => k =? x) _ _ _ Hev1 H1) as N1. change (credited x o1 <= received x o1) in N1.
  pose proof (run_inv _ _ _ _ H1 wf_init) as A1. destruct (acc_bounds A1 (Forall_nil _) Hev1) as [Hreg1 _].
  destruct (acc_bounds (run_inv _ _ _ _ H2 (acc_wf A1)) Hreg1 Hev2) as [_ N2].
  destruct (N2 (fun k => k =? x)) as (N2r & N2c & _). change (0 <= received x o2) in N2r. change (0 <= credited x o2) in N2c.
  destruct (no_leak _ _ _ Hl Hrun Hc) as [L _]. specialize (L x Hx).
  unfold received, credited in *. rewrite !total_app in *. lia.
Qed.

Lemma with_buf_some s sid f dflt b s' o : lookup sid (reg s) = Some b -> with_buf s sid f dflt = (s', o) ->
  exists b', f b = (b', o) /\ s' = mkSt (set sid b' (reg s)) (closing s).
Proof. intros Hl. unfold with_buf. rewrite Hl. destruct (f b) as [b' ob]. intros [= <- <-]. eauto. Qed.

Lemma reads_effect s sid size b b1 o : reads sid b size b1 o ->
  let s' := mkSt (set sid b1 (reg s)) (closing s) in
  exists p r b', bq b = p ++ r /\ lookup sid (reg s') = Some b' /\ bq b' = r /\ brel b' = brel b /\
    credited sid o = qsum p /\ credited_conn o = qsum p /\ (forall x, x <> sid -> credited x o = 0) /\
    queued sid s' = qsum r /\
    (forall p1 it p2, p = p1 ++ it :: p2 -> backed b + lsum p1 < size) /\
    stop_reason b size p r.
Proof.
  intros (p & Hq & Hrel & Hm & Hmin & Hst) s'. destruct (moves_credited _ _ _ _ Hm) as (C1 & C2 & C3).
  exists p, (bq b1), b1. unfold s'. rewrite queued_set. cbn [reg]. rewrite lookup_set, Z.eqb_refl. repeat split; assumption.
Qed.

(* a read on a buffer whose queue is empty (every released buffer of a live connection) credits nothing *)
Lemma read_empty_queue_credits_nothing s sid b e s' o :
  lookup sid (reg s) = Some b -> bq b = [] -> (exists size, e = Read sid size) \/ e = Wake sid ->
  step s e = (s', o) -> (forall x, credited x o = 0) /\ credited_conn o = 0 /\ queued sid s' = 0.
Proof.
  intros Hl Hq He H.
  assert (Hop : exists b', pops sid b b' o /\ s' = mkSt (set sid b' (reg s)) (closing s)).
  { destruct He as [[size ->]| ->]; destruct (with_buf_some _ _ _ _ _ _ _ Hl H) as (b' & Hb & ->); exists b';
      (split; [|reflexivity]); [apply (buf_read_spec _ _ _ _ _ Hb)|apply (buf_wake_spec _ _ _ _ Hb)]. }
  destruct Hop as (b' & (p & Hp & _ & Hm) & ->). rewrite Hq in Hp. symmetry in Hp. apply app_eq_nil in Hp as [-> Hq'].
  destruct (moves_uncredited _ _ _ Hm) as [U1 U2]. rewrite queued_set, Z.eqb_refl, Hq'. auto.
Qed.

Lemma release_credits_rest s sid b s' o :
  lookup_live sid (reg s) = Some b -> closing s = false -> step s (Release sid) = (s', o) ->
  credited sid o = qsum (bq b) /\ credited_conn o = qsum (bq b) /\ (forall x, x <> sid -> credited x o = 0) /\
  lookup_live sid (reg s') = None /\ held sid s' = 0 /\ queued sid s' = 0 /\
  (forall x, x <> sid -> lookup x (reg s') = lookup x (reg s)).
Proof.
  intros Hl Hc. cbn [step]. unfold with_live_buf. rewrite Hl, Hc. intros [= <- <-].
  destruct (moves_credited _ _ _ _ (moves_ack_out sid (qsum (bq b)))) as (C1 & C2 & C3).
  unfold held. rewrite queued_set. cbn [reg]. rewrite lookup_live_set, Z.eqb_refl. repeat split; auto.
  intros x Hx. rewrite lookup_set. destruct (Z.eqb_spec sid x); congruence.
Qed.

Lemma release_closing_forfeits s sid b s' o :
  lookup_live sid (reg s) = Some b -> closing s = true -> step s (Release sid) = (s', o) ->
  (forall x, credited x o = 0) /\ credited_conn o = 0 /\ dropped sid o = qsum (bq b) /\
  lookup_live sid (reg s') = None /\ held sid s' = 0 /\ forfeited sid s' = qsum (bq b).
Proof.
  intros Hl Hc. cbn [step]. unfold with_live_buf. rewrite Hl, Hc. intros [= <- <-].
  destruct (moves_uncredited _ _ _ (moves_one sid (ODrop sid (qsum (bq b))) I)) as [U1 U2].
  unfold held, forfeited. cbn [reg]. rewrite lookup_live_set, lookup_set, Z.eqb_refl. cbn. rewrite Z.eqb_refl.
  repeat split; auto; lia.
Qed.

Lemma release_idempotent s sid s1 o1 :
  step s (Release sid) = (s1, o1) -> step s1 (Release sid) = (s1, []).
Proof.
  cbn [step]. unfold with_live_buf. destruct (lookup_live sid (reg s)) as [b|] eqn:Hl; intros [= <- _].
  - cbn [reg]. rewrite lookup_live_set, Z.eqb_refl. reflexivity.
  - rewrite Hl. reflexivity.
Qed.

Lemma data_unregistered_credited_at_once s sid n pad s' o :
  lookup_live sid (reg s) = None -> step s (Data sid n pad) = (s', o) ->
  s' = s /\ received sid o = fcl n pad /\ credited sid o = fcl n pad /\
  received_conn o = fcl n pad /\ credited_conn o = fcl n pad.
Proof.
  intros Hl. cbn [step]. rewrite Hl. intros [= <- <-]. pose proof (moves_recv_ack sid (fcl n pad)) as Hm.
  destruct (moves_stream _ _ _ _ sid Hm) as [-> ->], (moves_conn _ _ _ _ Hm) as [-> ->]. rewrite Z.eqb_refl. auto.
Qed.

Lemma data_registered_not_credited s sid n pad b s' o :
  lookup_live sid (reg s) = Some b -> step s (Data sid n pad) = (s', o) ->
  (forall x, credited x o = 0) /\ credited_conn o = 0 /\ received sid o = fcl n pad /\
  held sid s' = held sid s + fcl n pad.
Proof.
  intros Hl. cbn [step]. rewrite Hl. intros [= <- <-].
  pose proof (moves_one sid (ORecv sid (fcl n pad)) eq_refl) as Hm. cbn [recvA credA] in Hm.
  destruct (moves_uncredited _ _ _ Hm) as [U1 U2], (moves_stream _ _ _ _ sid Hm) as [-> _].
  destruct (buf_add_spec b n (fcl n pad)) as (a & Hq & Ha & _ & Hrel), (lookup_live_some _ _ _ Hl) as [_ Hrb].
  unfold held. cbn [reg]. rewrite lookup_live_set, Z.eqb_refl, Hl, Hrel, Hrb, Hq, qsum_app, Ha. auto.
Qed.

Lemma step_unknown s e x : lookup x (reg s) = None -> e <> Open x -> lookup x (reg (fst (step s e))) = None.
Proof.
  intros Hx He. destruct (step s e) as [s' o] eqn:H. cbn [fst].
  destruct (step_effect _ _ _ _ H) as [sid -> Hr _|sid k Hr _ _|sid b b' Hl Hr _]; rewrite Hr, ?lookup_set; [|exact Hx|];
    (destruct (Z.eqb_spec sid x) as [<-|]; [congruence|exact Hx]).
Qed.

(* if the ids opened in h are pairwise distinct and none of them has been used at the start, h is legal *)
Lemma nodup_opens_legal h : forall s,
  NoDup (opens h) -> (forall x, In x (opens h) -> lookup x (reg s) = None) -> legal s h = true.
Proof.
  induction h as [|e h IH]; intros s Hnd Hfresh; [reflexivity|].
  cbn [legal]. apply andb_true_iff. split.
  - destruct e; try reflexivity. rewrite (Hfresh sid); [reflexivity|]. left. reflexivity.
  - apply IH.
    + destruct e; cbn [opens] in Hnd; try exact Hnd. inversion Hnd; assumption.
    + intros x Hx. apply step_unknown.
      * apply Hfresh. destruct e; cbn [opens]; try exact Hx. right. exact Hx.
      * intros ->. cbn [opens] in Hnd. inversion Hnd as [|? ? Hnin _]. exact (Hnin Hx).
Qed.

Lemma window_valid_iff w : window_valid w = true <-> cfg_wmin <= w <= cfg_wmax.
Proof.
  unfold window_valid. destruct (w <? cfg_wmin) eqn:E1; [split; [discriminate|lia]|].
  destruct (w >? cfg_wmax) eqn:E2; [split; [discriminate|lia]|]. split; [lia|reflexivity].
Qed.

Lemma windows_advertised cw sw :
  cfg_wmin <= cw <= cfg_wmax -> cfg_wmin <= sw <= cfg_wmax ->
  configure cw sw = Some (cw, sw) /\
  exists p, connection_made cw sw = Some p /\ advertised_conn p = cw /\ advertised_stream p = sw.
Proof.
  intros Hc Hs. split.
  - unfold configure. rewrite (proj2 (window_valid_iff cw) Hc), (proj2 (window_valid_iff sw) Hs). reflexivity.
  - (* all that matters of the numbers: the validated range is h2's own, and starts above 0 *)
    assert (Ei : h2_initial_window = cfg_wmin) by reflexivity. assert (Em : h2_max_window = cfg_wmax) by reflexivity.
    assert (H0 : 0 <= cfg_wmin) by discriminate.
    unfold connection_made, h2_increment, advertised_conn, advertised_stream. cbv zeta.
    (* the tests h2 makes on the two deltas succeed *)
    assert (B1 : (cw - h2_initial_window =? 0) = false ->
                 (1 <=? cw - h2_initial_window) && (cw - h2_initial_window <=? h2_max_window) = true) by lia.
    assert (B2 : (h2_initial_window + (cw - h2_initial_window) >? h2_max_window) = false) by lia.
    assert (B3 : (0 <=? sw) && (sw <=? h2_max_window) = true) by lia.
    destruct (cw - h2_initial_window =? 0) eqn:E1; rewrite ?B1, ?B2 by reflexivity;
      (destruct (sw - h2_initial_window =? 0) eqn:E2; rewrite ?B3; eexists; (split; [reflexivity|]); cbn [wu_incr set_iws]; lia).
Qed.

(* why the validators are needed: h2 refuses the preface for a connection window outside the range *)
Lemma preface_needs_validation cw sw :
  cw < h2_initial_window \/ h2_max_window < cw -> connection_made cw sw = None.
Proof.
  intros H. assert (H0 : h2_initial_window <= h2_max_window) by discriminate.
  unfold connection_made, h2_increment. cbv zeta.
  destruct (cw - h2_initial_window =? 0) eqn:E1; [exfalso; lia|].
  destruct ((1 <=? cw - h2_initial_window) && (cw - h2_initial_window <=? h2_max_window)) eqn:E2; [|reflexivity].
  destruct (h2_initial_window + (cw - h2_initial_window) >? h2_max_window) eqn:E3; [reflexivity|exfalso; lia].
Qed.
