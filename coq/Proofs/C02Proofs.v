(* Proofs for Props/C02.v, in this order.
   The abstraction alpha on ALL strings: dict(headers), :status, content-type, grpc-status (through the
   int() grammar of Model/PyInt.v and the generated Status table).
   For ALL scripts: the outcome does not change when headers, trailers and cuts are replaced by the normal
   form of what the call program can tell apart (outcome_norm).
   The bounded abstract domain closed by evaluation: the outcomes are computed once per class of layouts
   and cuts under that normal form, and the ten checks of each member are applied to them (sweep); the
   refuted cells (D2c, D2d, D2g) with their witnesses.
   For ALL scripts, kinds and bodies (induction, no bound): a call never hangs once the response was
   effectively cut or ended in END_STREAM (no_hang_general). *)
From Coq Require Import ZArith List Bool Lia ZifyBool String.
From GV Require Import Lib.Str Lib.StrFacts Gen.Facts Gen.FactsC02 Model.Base64 Model.Metadata Model.PyInt
  Model.ClientCall.
Import ListNotations.
Open Scope Z_scope.

Lemma zlist_eqb_iff a b : zlist_eqb a b = true <-> a = b.
Proof. apply zlist_eqb_eq. Qed.

Lemma dict_get_some_in k hs v : dict_get k hs = Some v -> In (k, v) hs.
Proof.
  induction hs as [|[k' v'] r IH]; cbn [dict_get]; [discriminate|].
  destruct (dict_get k r) as [w|] eqn:E.
  - intros H. injection H as <-. right. apply IH. reflexivity.
  - destruct (zlist_eqb k k') eqn:Ek; [|discriminate].
    intros H. injection H as <-. apply zlist_eqb_eq in Ek. subst. left. reflexivity.
Qed.

Lemma dict_get_none_iff k hs : dict_get k hs = None <-> forall v, ~ In (k, v) hs.
Proof.
  induction hs as [|[k' v'] r IH]; cbn [dict_get].
  - split; [intros _ v []|reflexivity].
  - destruct (dict_get k r) as [w|] eqn:E.
    + split; [discriminate|]. intros H. exfalso. apply (H w). right.
      apply dict_get_some_in. exact E.
    + destruct (zlist_eqb k k') eqn:Ek.
      * split; [discriminate|]. intros H. exfalso. apply zlist_eqb_eq in Ek. subst.
        apply (H v'). left. reflexivity.
      * split; [|reflexivity]. intros _ v [Hin|Hin].
        -- injection Hin as -> ->. rewrite zlist_eqb_refl in Ek. discriminate.
        -- destruct IH as [IH1 _]. apply (IH1 eq_refl v Hin).
Qed.

Lemma dict_get_last_wins k v hs1 hs2 :
  (forall w, ~ In (k, w) hs2) -> dict_get k (hs1 ++ (k, v) :: hs2) = Some v.
Proof.
  intros Hno. induction hs1 as [|[k' v'] r IH]; cbn [dict_get app].
  - apply dict_get_none_iff in Hno. rewrite Hno, zlist_eqb_refl. reflexivity.
  - rewrite IH. reflexivity.
Qed.

Lemma dict_get_app_last k v hs : dict_get k (hs ++ [(k, v)]) = Some v.
Proof. apply dict_get_last_wins. intros w []. Qed.

Lemma status_member_codes : map snd status_members = [0;1;2;3;4;5;6;7;8;9;10;11;12;13;14;15;16].
Proof. vm_compute. reflexivity. Qed.

Lemma status_member_range k : status_member k = true <-> 0 <= k <= 16.
Proof.
  unfold status_member. rewrite existsb_exists. split.
  - intros [m [Hin Hk]]. apply Z.eqb_eq in Hk. apply (in_map snd) in Hin.
    rewrite status_member_codes in Hin. rewrite Hk in Hin. cbn [In] in Hin. lia.
  - intros Hr.
    assert (Hin : In k (map snd status_members)).
    { rewrite status_member_codes. cbn [In]. lia. }
    apply in_map_iff in Hin as [m [Hm Hin]]. exists m. split; [exact Hin|]. apply Z.eqb_eq. exact Hm.
Qed.

Lemma status_member_eq k : status_member k = (0 <=? k) && (k <=? 16).
Proof. apply eq_true_iff_eq. rewrite status_member_range. lia. Qed.

Lemma grpc_status_valid_iff v k :
  grpc_status_of_value v = GsvValid k <-> py_int v = Some k /\ 0 <= k <= 16.
Proof.
  unfold grpc_status_of_value.
  destruct (py_int v) as [n|]; [rewrite status_member_eq; destruct (_ && _) eqn:E|];
    (split; [intros [= <-]; split|intros [[= <-] H]]); (reflexivity || lia).
Qed.

Lemma grpc_status_invalid_iff v :
  grpc_status_of_value v = GsvInvalid <->
  py_int v = None \/ exists k, py_int v = Some k /\ ~ (0 <= k <= 16).
Proof.
  unfold grpc_status_of_value.
  destruct (py_int v) as [n|]; [rewrite status_member_eq; destruct (_ && _) eqn:E|]; split; try discriminate; auto.
  - intros [[=]|(k & [= <-] & H)]. lia.
  - intros _. right. exists n. split; [reflexivity|lia].
Qed.

Lemma grpc_status_never_absent v : grpc_status_of_value v <> GsvAbsent.
Proof. unfold grpc_status_of_value. destruct (py_int v); [destruct (status_member z)|]; discriminate. Qed.

Lemma grpc_status_canonical k : 0 <= k <= 16 -> grpc_status_of_value (py_str_nat k) = GsvValid k.
Proof.
  intros H.
  assert (Hk : k = 0 \/ k = 1 \/ k = 2 \/ k = 3 \/ k = 4 \/ k = 5 \/ k = 6 \/ k = 7 \/ k = 8 \/ k = 9 \/
               k = 10 \/ k = 11 \/ k = 12 \/ k = 13 \/ k = 14 \/ k = 15 \/ k = 16) by lia.
  repeat (destruct Hk as [-> | Hk]; [vm_compute; reflexivity|]). subst. vm_compute. reflexivity.
Qed.

(* the grpc-status class of a block, from the last grpc-status header through int() *)
Lemma gs_class_eq hs :
  gs_class_of (grpc_status_val hs) =
  match dict_get K_GS hs with
  | None => GsAbsent
  | Some v => match py_int v with
              | Some k => if (0 <=? k) && (k <=? 16) then if k =? 0 then GsOk else GsErr else GsInvalid
              | None => GsInvalid
              end
  end.
Proof.
  unfold grpc_status_val, grpc_status_of_value. destruct (dict_get K_GS hs) as [v|]; [|reflexivity].
  destruct (py_int v) as [k|]; [|reflexivity]. rewrite status_member_eq. destruct (_ && _); reflexivity.
Qed.

(* the five cases of [gs_class_eq] *)
Ltac gs_cases hs :=
  cbn [alpha_h hi_gs]; rewrite gs_class_eq;
  destruct (dict_get K_GS hs) as [v|];
    [destruct (py_int v) as [k|] eqn:Ei; [destruct ((0 <=? k) && (k <=? 16)) eqn:Er; [destruct (k =? 0) eqn:E0|]|]|].

Lemma alpha_gs_absent csub hs : hi_gs (alpha_h csub hs) = GsAbsent <-> dict_get K_GS hs = None.
Proof. gs_cases hs; split; congruence. Qed.

Lemma alpha_gs_ok csub hs :
  hi_gs (alpha_h csub hs) = GsOk <-> exists v, dict_get K_GS hs = Some v /\ py_int v = Some 0.
Proof.
  gs_cases hs; (split; [intros H|intros (w & [= <-] & Hw)]); try congruence.
  - exists v. split; [reflexivity|]. rewrite Ei. f_equal. lia.
  - assert (k = 0) by congruence. lia.
  - assert (k = 0) by congruence. lia.
Qed.

Lemma alpha_gs_err csub hs :
  hi_gs (alpha_h csub hs) = GsErr <->
  exists v k, dict_get K_GS hs = Some v /\ py_int v = Some k /\ 1 <= k <= 16.
Proof.
  gs_cases hs; (split; [intros H|intros (w & n & [= <-] & Hw & Hn)]); try congruence.
  - assert (k = n) by congruence. lia.
  - exists v, k. repeat split; [exact Ei|lia..].
  - assert (k = n) by congruence. lia.
Qed.

Lemma alpha_gs_invalid csub hs :
  hi_gs (alpha_h csub hs) = GsInvalid <->
  exists v, dict_get K_GS hs = Some v /\
            (py_int v = None \/ exists k, py_int v = Some k /\ ~ (0 <= k <= 16)).
Proof.
  gs_cases hs; (split; [intros H|intros (w & [= <-] & [Hw|(n & Hw & Hn)])]); try congruence.
  - assert (k = n) by congruence. lia.
  - assert (k = n) by congruence. lia.
  - exists v. split; [reflexivity|]. right. exists k. split; [exact Ei|lia].
  - exists v. split; [reflexivity|]. left. exact Ei.
Qed.

(* trailers: the same classification *)
Lemma alpha_t_gs csub ts : ti_gs (alpha_t ts) = hi_gs (alpha_h csub ts).
Proof. reflexivity. Qed.

Lemma alpha_status_200 csub hs :
  hi_st (alpha_h csub hs) = S200 <-> dict_get K_STATUS hs = Some h2_ok.
Proof.
  cbn [alpha_h hi_st]. unfold http_status_error. destruct (dict_get K_STATUS hs) as [v|].
  - destruct (zlist_eqb v h2_ok) eqn:E.
    + apply zlist_eqb_eq in E. subst. split; reflexivity.
    + split; [discriminate|]. intros H. injection H as ->. rewrite zlist_eqb_refl in E. discriminate.
  - split; discriminate.
Qed.

Lemma http_status_error_spec hs st :
  http_status_error hs = Some st <->
  (exists v, dict_get K_STATUS hs = Some v /\ v <> h2_ok /\
             st = match assoc_str v h2_to_grpc_status_map with Some s => s | None => non200_default_status end)
  \/ (dict_get K_STATUS hs = None /\ st = non200_default_status).
Proof.
  unfold http_status_error. destruct (dict_get K_STATUS hs) as [v|].
  - destruct (zlist_eqb v h2_ok) eqn:E.
    + apply zlist_eqb_eq in E. split; [discriminate|]. intros [(w & [= <-] & Hne & _)|[[=] _]]. contradiction.
    + split.
      * intros [= <-]. left. exists v. repeat split. intros ->. rewrite zlist_eqb_refl in E. discriminate.
      * intros [(w & [= <-] & _ & ->)|[[=] _]]. reflexivity.
  - split; [intros [= <-]; right; split; reflexivity|]. intros [(w & [=] & _)|[_ ->]]. reflexivity.
Qed.

Definition no_plus (s : list Z) : Prop := ~ In 43 s.

Lemma partition_plus_spec s :
  match partition_plus s with
  | (a, None) => s = a /\ no_plus a
  | (a, Some b) => s = a ++ 43 :: b /\ no_plus a
  end.
Proof.
  induction s as [|c r IH]; cbn [partition_plus].
  - split; [reflexivity|]. intros [].
  - destruct (c =? 43) eqn:E.
    + apply Z.eqb_eq in E. subst. split; [reflexivity|]. intros [].
    + apply Z.eqb_neq in E. destruct (partition_plus r) as [a [b|]].
      * destruct IH as [-> Hn]. split; [reflexivity|]. intros [H|H]; [congruence|]. exact (Hn H).
      * destruct IH as [-> Hn]. split; [reflexivity|]. intros [H|H]; [congruence|]. exact (Hn H).
Qed.

(* a prefix without '+' goes to the base *)
Lemma partition_plus_prefix a r :
  no_plus a -> partition_plus (a ++ r) = let '(base, sub) := partition_plus r in (a ++ base, sub).
Proof.
  induction a as [|c a IH]; intros Hn; cbn [partition_plus app]; [destruct (partition_plus r); reflexivity|].
  destruct (c =? 43) eqn:E.
  - apply Z.eqb_eq in E. subst. exfalso. apply Hn. left. reflexivity.
  - rewrite IH by (intros H; apply Hn; right; exact H). destruct (partition_plus r). reflexivity.
Qed.

Lemma partition_plus_no_plus a : no_plus a -> partition_plus a = (a, None).
Proof.
  intros Hn. pose proof (partition_plus_prefix a [] Hn) as H. cbn [partition_plus] in H.
  rewrite !app_nil_r in H. exact H.
Qed.

Lemma partition_plus_app a b : no_plus a -> partition_plus (a ++ 43 :: b) = (a, Some b).
Proof. intros Hn. rewrite (partition_plus_prefix a _ Hn). cbn. rewrite app_nil_r. reflexivity. Qed.

Lemma grpc_ct_no_plus : no_plus grpc_content_type.
Proof. unfold no_plus. vm_compute. intuition discriminate. Qed.

(* the values of the content-type header a client accepts whose codec has the subtype csub
   (spelled out by ct_value_ok_all_subtypes) *)
Definition ct_value_ok (csub v : list Z) : bool :=
  let '(base, sub) := partition_plus v in
  let sub1 := match sub with Some (x :: r) => x :: r | _ => proto_content_subtype end in
  zlist_eqb base grpc_content_type && zlist_eqb sub1 csub.

Lemma content_type_class_ok csub hs :
  content_type_class csub hs = CtOk <-> exists v, dict_get K_CT hs = Some v /\ ct_value_ok csub v = true.
Proof.
  unfold content_type_class, ct_value_ok. destruct (dict_get K_CT hs) as [v|].
  - destruct (partition_plus v) as [base sub] eqn:Ep.
    destruct (zlist_eqb base grpc_content_type && _) eqn:E.
    + split; [|reflexivity]. intros _. exists v. split; [reflexivity|]. rewrite Ep. exact E.
    + split; [discriminate|]. intros [w [Hw Hok]]. injection Hw as <-. rewrite Ep, E in Hok. discriminate.
  - split; [discriminate|]. intros [w [Hw _]]. discriminate.
Qed.

Lemma content_type_class_missing csub hs :
  content_type_class csub hs = CtMissing <-> dict_get K_CT hs = None.
Proof.
  unfold content_type_class. destruct (dict_get K_CT hs) as [v|]; [|split; reflexivity].
  destruct (partition_plus v) as [base sub]. destruct (_ && _); split; discriminate.
Qed.

Lemma ct_value_ok_all_subtypes csub v :
  ct_value_ok csub v = true <->
  (csub = proto_content_subtype /\ (v = grpc_content_type \/ v = grpc_content_type ++ [43]))
  \/ (csub <> [] /\ v = grpc_content_type ++ 43 :: csub).
Proof.
  unfold ct_value_ok. split.
  - pose proof (partition_plus_spec v) as Hs. destruct (partition_plus v) as [base sub].
    intros [->%zlist_eqb_eq H2%zlist_eqb_eq]%andb_true_iff.
    destruct sub as [[|x r]|]; destruct Hs as [-> _]; subst csub; auto. right. split; [discriminate|reflexivity].
  - intros [[-> [->| ->]]|[Hc ->]].
    + rewrite (partition_plus_no_plus _ grpc_ct_no_plus), !zlist_eqb_refl. reflexivity.
    + rewrite (partition_plus_app _ [] grpc_ct_no_plus), !zlist_eqb_refl. reflexivity.
    + rewrite (partition_plus_app _ csub grpc_ct_no_plus). destruct csub; [contradiction|].
      rewrite !zlist_eqb_refl. reflexivity.
Qed.

Lemma ct_value_ok_proto v :
  ct_value_ok proto_content_subtype v = true <->
  v = grpc_content_type \/ v = grpc_content_type ++ [43] \/
  v = grpc_content_type ++ 43 :: proto_content_subtype.
Proof.
  rewrite ct_value_ok_all_subtypes. split.
  - intros [[_ [H|H]]|[_ H]]; auto.
  - intros [H|[H|H]]; [left; auto..|right]. split; [discriminate|exact H].
Qed.

(* The program looks at a block of headers only as far as the first check that fails, at trailers with a
   missing or an invalid grpc-status in the same way, and treats GOAWAY like the loss of the connection. *)
Definition hnorm (h : hinfo) : hinfo :=
  match hi_st h, hi_ct h, hi_gs h with
  | SNot200, _, _ => {| hi_st := SNot200; hi_ct := CtOk; hi_gs := GsAbsent; hi_md := MdOk |}
  | S200, CtOk, GsInvalid => {| hi_st := S200; hi_ct := CtOk; hi_gs := GsInvalid; hi_md := MdOk |}
  | S200, CtOk, _ => h
  | S200, _, g => {| hi_st := S200; hi_ct := CtBad; hi_gs := g; hi_md := MdOk |}
  end.
Definition tnorm (t : tinfo) : tinfo :=
  match ti_gs t with
  | GsAbsent | GsInvalid => {| ti_gs := GsAbsent; ti_md := MdOk |}
  | _ => t
  end.
Definition enorm (e : aevent) : aevent :=
  match e with AH h e' => AH (hnorm h) e' | AT t => AT (tnorm t) | ALost => AGoaway | _ => e end.
Definition bnorm (b : batch) : batch := {| b_trig := b_trig b; b_events := map enorm (b_events b) |}.
Definition snorm (s : state) : state :=
  {| hdr := option_map hnorm (hdr s); q := q s; eof := eof s; trl := option_map tnorm (trl s); werr := werr s;
     closing := closing s; h2closed := h2closed s; ri_done := ri_done s; rt_done := rt_done s; tonly := tonly s |}.
Definition stnorm {A} (m : step A) : step A :=
  match m with
  | Ret a s bs => Ret a (snorm s) (map bnorm bs)
  | Raise e s bs => Raise e (snorm s) (map bnorm bs)
  | Hangs => Hangs
  | Stuck => Stuck
  end.
(* F commutes with the normalisation *)
Definition natural {A} (F : state -> list batch -> step A) : Prop :=
  forall s bs, F (snorm s) (map bnorm bs) = stnorm (F s bs).

Lemma apply_event_norm s e : apply_event (snorm s) (enorm e) = snorm (apply_event s e).
Proof. unfold apply_event. cbn [snorm closing h2closed]. destruct (closing s), e, (h2closed s); reflexivity. Qed.

Lemma apply_batch_norm b s : apply_batch (bnorm b) (snorm s) = snorm (apply_batch b s).
Proof.
  unfold apply_batch. cbn [bnorm b_events]. revert s.
  induction (b_events b) as [|e r IH]; intros s; cbn [map fold_left]; [reflexivity|].
  rewrite apply_event_norm. apply IH.
Qed.

Lemma wait_norm cond (Hc : forall s, cond (snorm s) = cond s) bs : forall s,
  wait cond (snorm s) (map bnorm bs) =
  match wait cond s bs with
  | WReady s' bs' => WReady (snorm s') (map bnorm bs')
  | WTerm s' bs' => WTerm (snorm s') (map bnorm bs')
  | WHang => WHang
  end.
Proof.
  induction bs as [|b r IH]; intros s; cbn [wait map]; rewrite Hc; destruct (cond s); try reflexivity.
  rewrite apply_batch_norm. cbn [werr snorm]. destruct (werr (apply_batch b s)); [reflexivity|apply IH].
Qed.

Lemma has_hdr_norm s : has_hdr (snorm s) = has_hdr s.
Proof. unfold has_hdr. cbn [hdr snorm]. destruct (hdr s); reflexivity. Qed.

Lemma trl_ready_norm s : trl_ready (snorm s) = trl_ready s.
Proof. unfold trl_ready, has_trl. cbn [trl eof snorm]. destruct (trl s); reflexivity. Qed.

Lemma natural_ret {A} (a : A) : natural (Ret a).
Proof. intros s bs. reflexivity. Qed.

Lemma bind_norm {A B} (m : step A) (f : A -> state -> list batch -> step B) :
  (forall a, natural (f a)) -> bind (stnorm m) f = stnorm (bind m f).
Proof. intros Hf. destruct m; cbn [bind stnorm]; [apply Hf|reflexivity..]. Qed.

Lemma listen_then_norm {A} on (k : state -> list batch -> step A) :
  natural k -> natural (fun s bs => listen_then on s bs k).
Proof.
  intros Hk s bs. unfold listen_then. destruct on; [|apply Hk].
  destruct bs as [|b r]; [apply Hk|]. cbn [map]. change (b_trig (bnorm b)) with (b_trig b).
  destruct (b_trig b); try apply (Hk s (b :: r)).
  rewrite apply_batch_norm. cbn [werr snorm]. destruct (werr (apply_batch b s)); [reflexivity|apply Hk].
Qed.

Lemma recv_initial_norm lis : natural (recv_initial lis).
Proof.
  intros s bs. unfold recv_initial. cbn [ri_done werr snorm].
  destruct (ri_done s); [reflexivity|]. destruct (werr s); [reflexivity|].
  rewrite (wait_norm _ has_hdr_norm). destruct (wait has_hdr s bs) as [s' bs'|s' bs'|]; try reflexivity.
  cbn [hdr snorm]. destruct (hdr s') as [h|]; [|reflexivity]. cbn [option_map].
  change (set_ri (snorm s')) with (snorm (set_ri s')).
  change (set_tonly (snorm (set_ri s'))) with (snorm (set_tonly (set_ri s'))).
  destruct h as [[] [] [] []]; cbn [hnorm hi_st hi_ct hi_gs hi_md]; try reflexivity;
    repeat (apply listen_then_norm; intros ? ?); reflexivity.
Qed.

(* the implicit recv_initial_metadata of recv_message and of the context exit *)
Lemma implicit_initial_norm lis s bs :
  (if ri_done (snorm s) then Ret tt (snorm s) (map bnorm bs) else recv_initial lis (snorm s) (map bnorm bs))
  = stnorm (if ri_done s then Ret tt s bs else recv_initial lis s bs).
Proof. cbn [ri_done snorm]. destruct (ri_done s); [reflexivity|apply recv_initial_norm]. Qed.

Lemma recv_message_norm lis : natural (recv_message lis).
Proof.
  intros s bs. unfold recv_message. rewrite implicit_initial_norm.
  apply bind_norm. clear s bs. intros _ s bs. cbn [werr snorm]. destruct (werr s); [reflexivity|].
  rewrite wait_norm by reflexivity. destruct (wait data_ready s bs) as [s' bs'|s' bs'|]; try reflexivity.
  cbn [q snorm]. destruct (0 <? Z.of_nat (q s')); [|reflexivity].
  apply (listen_then_norm _ _ (natural_ret true) (pop_msg s')).
Qed.

Lemma recv_trailing_norm lis : natural (recv_trailing lis).
Proof.
  intros s bs. unfold recv_trailing. cbn [ri_done rt_done tonly werr snorm].
  destruct (negb (ri_done s)); [reflexivity|]. destruct (rt_done s); [reflexivity|].
  destruct (tonly s); [reflexivity|]. destruct (werr s); [reflexivity|].
  rewrite (wait_norm _ trl_ready_norm). destruct (wait trl_ready s bs) as [s' bs'|s' bs'|]; try reflexivity.
  cbn [trl snorm]. change (set_rt (snorm s')) with (snorm (set_rt s')).
  destruct (trl s') as [[[] []]|]; cbn [option_map tnorm ti_gs ti_md]; try reflexivity;
    apply listen_then_norm; intros ? ?; reflexivity.
Qed.

Lemma iterate_norm lis fuel : forall n, natural (iterate lis fuel n).
Proof.
  induction fuel as [|f IH]; intros n s bs; cbn [iterate]; [reflexivity|].
  rewrite recv_message_norm. apply bind_norm. intros [|]; [apply IH|apply natural_ret].
Qed.

Lemma run_op_norm lis fuel o got : natural (run_op lis fuel o got).
Proof.
  intros s bs. destruct o; cbn [run_op].
  - rewrite recv_initial_norm. apply bind_norm. intros _. apply natural_ret.
  - rewrite recv_message_norm. apply bind_norm. intros m. apply natural_ret.
  - apply iterate_norm.
  - rewrite recv_trailing_norm. apply bind_norm. intros _. apply natural_ret.
Qed.

Lemma deliver_before_norm k : forall bs s,
  deliver_before k (snorm s) (map bnorm bs) = let '(s', bs') := deliver_before k s bs in (snorm s', map bnorm bs').
Proof.
  induction bs as [|b r IH]; intros s; cbn [deliver_before map]; [reflexivity|].
  change (b_trig (bnorm b)) with (b_trig b). destruct (b_trig b) as [|k'|]; try reflexivity.
  destruct (Nat.leb k' k); [|reflexivity]. rewrite apply_batch_norm. apply IH.
Qed.

Lemma run_prog_norm lis fuel : forall ops k got, natural (run_prog lis fuel k ops got).
Proof.
  induction ops as [|o r IH]; intros k got s bs; cbn [run_prog]; rewrite deliver_before_norm;
    destruct (deliver_before k s bs) as [s0 bs0]; [reflexivity|].
  rewrite run_op_norm. apply bind_norm. intros g. apply IH.
Qed.

Lemma maybe_raise_norm s : maybe_raise (snorm s) = maybe_raise s.
Proof.
  unfold maybe_raise. cbn [hdr trl snorm].
  destruct (hdr s) as [[[] [] [] []]|], (trl s) as [[[] []]|]; reflexivity.
Qed.

Lemma maybe_finish_norm lis : natural (maybe_finish lis).
Proof.
  intros s bs. unfold maybe_finish. rewrite implicit_initial_norm.
  apply bind_norm. clear s bs. intros _ s bs. cbn [rt_done snorm].
  destruct (rt_done s); [reflexivity|apply recv_trailing_norm].
Qed.

Lemma finish_norm {A} lis (body : step A) ok : finish lis (stnorm body) ok = finish lis body ok.
Proof.
  destruct body as [a s bs|e s bs| |]; cbn [finish stnorm aexit]; try reflexivity.
  - rewrite maybe_finish_norm. destruct (maybe_finish lis s bs); cbn [stnorm]; try reflexivity.
    unfold upgrade. rewrite maybe_raise_norm. reflexivity.
  - unfold upgrade. rewrite maybe_raise_norm. reflexivity.
Qed.

Lemma fuel_of_norm bs : fuel_of (map bnorm bs) = fuel_of bs.
Proof.
  unfold fuel_of, count_data. do 2 f_equal. induction bs as [|b r IH]; cbn [map flat_map]; [reflexivity|].
  rewrite !filter_app, !app_length, IH. f_equal. cbn [bnorm b_events].
  induction (b_events b) as [|[] l IHl]; cbn; auto.
Qed.

Theorem outcome_norm lis k bs : outcome lis k (map bnorm bs) = outcome lis k bs.
Proof.
  destruct k as [cs [|]|cs ss p]; cbn [outcome]; rewrite ?fuel_of_norm; change init with (snorm init).
  - rewrite iterate_norm. apply finish_norm.
  - rewrite recv_message_norm. apply finish_norm.
  - rewrite run_prog_norm. apply finish_norm.
Qed.

Definition exists_scripts (maxd : nat) (trs : list trigger) (P : list batch -> bool) : bool :=
  existsb (fun es => existsb (fun c => existsb P (timings trs es c)) all_cuts) (all_layouts maxd).

Lemma exists_scripts_sound maxd trs P :
  exists_scripts maxd trs P = true -> exists bs, In bs (all_scripts maxd trs) /\ P bs = true.
Proof.
  unfold exists_scripts, all_scripts. intros H.
  apply existsb_exists in H as [es [Hes H]]. apply existsb_exists in H as [c [Hc H]].
  apply existsb_exists in H as [bs [Hbs H]]. exists bs. split; [|exact H].
  apply in_flat_map. exists es. split; [exact Hes|]. apply in_flat_map. exists c. split; assumption.
Qed.

(* every check takes the outcome r = outcome lis k bs as an argument, so that it is computed once per cell *)
Definition chk_table (k : kind) (bs : list batch) (r : result) : bool := defect k bs || spec_allows bs r.
Definition chk_ok (k : kind) (bs : list batch) (r : result) : bool :=
  match r with ROk _ => status_ok_received bs | _ => true end.
Definition chk_hang (k : kind) (bs : list batch) (r : result) : bool :=
  match r with
  | RHang => negb (ev_ended (events bs) || ev_cut (events bs) false)
  | _ => true
  end.
Definition chk_exc (k : kind) (bs : list batch) (r : result) : bool :=
  match r with
  | RExc XProtocol => false
  | RExc XAssertion => d2d k bs
  | RExc (XMetadata _) => d2c k bs
  | RStuck => false
  | _ => true
  end.
Definition is_not200 (h : option hinfo) : bool :=
  match h with Some h => match hi_st h with SNot200 => true | S200 => false end | None => false end.
Definition exn_eqb (a b : exn) : bool :=
  match a, b with
  | XHttpStatus, XHttpStatus | XContentType, XContentType | XTerminated, XTerminated
  | XProtocol, XProtocol | XAssertion, XAssertion => true
  | XBadGrpcStatus BHdr, XBadGrpcStatus BHdr | XBadGrpcStatus BTrl, XBadGrpcStatus BTrl
  | XServer BHdr, XServer BHdr | XServer BTrl, XServer BTrl
  | XMetadata BHdr, XMetadata BHdr | XMetadata BTrl, XMetadata BTrl => true
  | _, _ => false
  end.
Definition raises (r : result) (e : exn) : bool := match r with RExc e' => exn_eqb e' e | _ => false end.
(* rows of the table with their exact outcome *)
Definition row_non200_hyp (k : kind) (bs : list batch) : bool :=
  is_not200 (ev_hdr (events bs)).
Definition chk_row_non200 (k : kind) (bs : list batch) (r : result) : bool :=
  implb (row_non200_hyp k bs) (raises r XHttpStatus).
Definition row_server_trl_hyp (k : kind) (bs : list batch) : bool :=
  let es := events bs in
  acceptable (ev_hdr es) && negb (defect k bs)
  && gs_eqb (h_gs (ev_hdr es)) GsAbsent && gs_eqb (t_gs (ev_trl es)) GsErr.
Definition row_server_hdr_hyp (k : kind) (bs : list batch) : bool :=
  let es := events bs in
  acceptable (ev_hdr es) && negb (defect k bs)
  && gs_eqb (h_gs (ev_hdr es)) GsErr && negb (has_trl_ev es).
Definition chk_row_server (k : kind) (bs : list batch) (r : result) : bool :=
  implb (row_server_trl_hyp k bs) (raises r (XServer BTrl))
  && implb (row_server_hdr_hyp k bs) (raises r (XServer BHdr)).
(* the response was cut before END_STREAM and before any grpc-status (or anything unacceptable) arrived *)
Definition row_nothing_hyp (k : kind) (bs : list batch) : bool :=
  let es := events bs in
  ev_cut es false && negb (ev_ended es) && negb (d2c k bs)
  && match ev_hdr es with None => true | Some h => acceptable (Some h) && gs_eqb (hi_gs h) GsAbsent end
  && negb (has_trl_ev es).
Definition chk_row_nothing (k : kind) (bs : list batch) (r : result) : bool :=
  implb (row_nothing_hyp k bs) (raises r XTerminated).
(* a complete, acceptable response whose only grpc-status is OK *)
Definition row_success_hyp (k : kind) (bs : list batch) : bool :=
  let es := events bs in
  acceptable (ev_hdr es) && negb (ev_cut es false) && negb (defect k bs) && ev_ended es
  && ((gs_eqb (h_gs (ev_hdr es)) GsOk && negb (has_trl_ev es))
      || (gs_eqb (h_gs (ev_hdr es)) GsAbsent && gs_eqb (t_gs (ev_trl es)) GsOk)).
Definition chk_row_success (k : kind) (bs : list batch) (r : result) : bool :=
  implb (row_success_hyp k bs) (match r with ROk _ => true | _ => false end).

(* an acceptable response that ends with END_STREAM without trailers and without grpc-status, not cut *)
Definition row_missing_status_hyp (k : kind) (bs : list batch) : bool :=
  let es := events bs in
  acceptable (ev_hdr es) && negb (defect k bs) && ev_ended es && negb (ev_cut es false)
  && negb (has_trl_ev es) && gs_eqb (h_gs (ev_hdr es)) GsAbsent.
Definition chk_row_missing_status (k : kind) (bs : list batch) (r : result) : bool :=
  implb (row_missing_status_hyp k bs) (raises r (XBadGrpcStatus BTrl)).

Definition checks (k : kind) (bs : list batch) (r : result) : bool :=
  wf_script bs && chk_row_missing_status k bs r
  && chk_table k bs r && chk_ok k bs r && chk_hang k bs r && chk_exc k bs r
  && chk_row_non200 k bs r && chk_row_server k bs r && chk_row_nothing k bs r && chk_row_success k bs r.
Definition all_checks (lis : listeners) (k : kind) (bs : list batch) : bool := checks k bs (outcome lis k bs).

Lemma raises_eq r e : raises r e = true -> r = RExc e.
Proof.
  destruct r as [n|e'| |]; cbn [raises]; try discriminate.
  destruct e' as [| |[]|[]| | | |[]], e as [| |[]|[]| | | |[]]; cbn [exn_eqb]; try discriminate; reflexivity.
Qed.

(* a row of the table with its exact outcome *)
Lemma row_raises (hyp : bool) r e : implb hyp (raises r e) = true -> hyp = true -> r = RExc e.
Proof. intros H ->. apply raises_eq, H. Qed.

(* what the ten checks say of one cell (kind, script, outcome); the theorems of Props/C02.v are its fields
   at r = outcome lis k bs *)
Record cell (k : kind) (bs : list batch) (r : result) : Prop := {
  c_wf : wf_script bs = true;
  c_table : defect k bs = false -> spec_allows bs r = true;
  c_ok : forall n, r = ROk n -> status_ok_received bs = true;
  c_no_hang : ev_ended (events bs) || ev_cut (events bs) false = true -> r <> RHang;
  c_exc : forall e, d2c k bs = false -> d2d k bs = false -> r = RExc e ->
          e <> XProtocol /\ e <> XAssertion /\ (forall b, e <> XMetadata b);
  c_not_stuck : r <> RStuck;
  c_non200 : row_non200_hyp k bs = true -> r = RExc XHttpStatus;
  c_server_trl : row_server_trl_hyp k bs = true -> r = RExc (XServer BTrl);
  c_server_hdr : row_server_hdr_hyp k bs = true -> r = RExc (XServer BHdr);
  c_nothing : row_nothing_hyp k bs = true -> r = RExc XTerminated;
  c_success : row_success_hyp k bs = true -> exists n, r = ROk n;
  c_missing_status : row_missing_status_hyp k bs = true -> r = RExc (XBadGrpcStatus BTrl)
}.

Lemma checks_cell k bs r : checks k bs r = true -> cell k bs r.
Proof.
  unfold checks. rewrite !andb_true_iff.
  (* the conjuncts in the order of [checks]; the fields in the order of [cell] *)
  intros [[[[[[[[[Hwf Hms] Htab] Hok] Hhang] Hexc] H200] [Htrl Hhdr]%andb_true_iff] Hnot] Hsuc].
  split.
  - exact Hwf.
  - intros Hd. unfold chk_table in Htab. rewrite Hd in Htab. exact Htab.
  - intros n ->. exact Hok.
  - intros He ->. unfold chk_hang in Hhang. rewrite He in Hhang. discriminate.
  - intros e Hc Hd ->. unfold chk_exc in Hexc.
    split; [|split; [|intros b]]; intros ->; rewrite ?Hc, ?Hd in Hexc; discriminate.
  - intros ->. discriminate Hexc.
  - exact (row_raises _ _ _ H200).
  - exact (row_raises _ _ _ Htrl).
  - exact (row_raises _ _ _ Hhdr).
  - exact (row_raises _ _ _ Hnot).
  - intros Hh. unfold chk_row_success in Hsuc. rewrite Hh in Hsuc.
    destruct r as [n| | |]; try discriminate. exists n. reflexivity.
  - exact (row_raises _ _ _ Hms).
Qed.

(* the checks see a script only through its events, whatever the batching and the triggers ... *)
Lemma checks_events k bs bs' r : events bs = events bs' -> checks k bs r = checks k bs' r.
Proof.
  intros E.
  unfold checks, chk_row_missing_status, row_missing_status_hyp, chk_table, chk_ok, chk_hang, chk_exc,
    chk_row_non200, row_non200_hyp, chk_row_server, row_server_trl_hyp, row_server_hdr_hyp,
    chk_row_nothing, row_nothing_hyp, chk_row_success, row_success_hyp,
    wf_script, spec_allows, defect, d2c, d2d, d2g, status_ok_received, count_data.
  fold (events bs) (events bs'). rewrite E. reflexivity.
Qed.

(* ... and every timing of a layout es and a cut c has the events es ++ c *)
Lemma events_mk_batches sep pre tr last : events (mk_batches sep pre tr last) = pre ++ last.
Proof.
  unfold mk_batches, events. rewrite flat_map_app. f_equal.
  - destruct sep.
    + induction pre as [|e r IH]; cbn; [reflexivity|]. f_equal. exact IH.
    + destruct pre; cbn; [reflexivity|]. rewrite app_nil_r. reflexivity.
  - destruct last; cbn; [reflexivity|]. rewrite app_nil_r. reflexivity.
Qed.

Definition one (es : list aevent) : list batch := [{| b_trig := TB; b_events := es |}].

(* the split points of [timings], by structural recursion *)
Fixpoint splits {A} (l : list A) : list (list A * list A) :=
  match l with
  | [] => [([], [])]
  | x :: r => ([], l) :: map (fun '(p, s) => (x :: p, s)) (splits r)
  end.

Lemma splits_firstn_skipn {A} (l : list A) : forall n, In (firstn n l, skipn n l) (splits l).
Proof.
  induction l as [|x r IH]; intros [|n]; cbn [firstn skipn splits]; try (left; reflexivity).
  right. apply in_map_iff. exists (firstn n r, skipn n r). split; [reflexivity|apply IH].
Qed.

(* the scripts of [timings], each once: "one batch" and "one batch per event" are the same script when at
   most one event precedes the last batch *)
Definition scripts (trs : list trigger) (es c : list aevent) : list (list batch) :=
  flat_map (fun '(pre, last) =>
    flat_map (fun tr => mk_batches false pre tr (last ++ c)
                        :: match pre with _ :: _ :: _ => [mk_batches true pre tr (last ++ c)] | _ => [] end) trs)
    (splits es).

Lemma bnorm_mk_batches sep pre tr last :
  map bnorm (mk_batches sep pre tr last) = mk_batches sep (map enorm pre) tr (map enorm last).
Proof.
  unfold mk_batches. rewrite map_app. f_equal.
  - destruct sep; [|destruct pre; reflexivity]. rewrite !map_map. reflexivity.
  - destruct last; reflexivity.
Qed.

Lemma timings_covered trs es c bs :
  In bs (timings trs es c) -> In (map bnorm bs) (scripts trs (map enorm es) (map enorm c)) /\ events bs = es ++ c.
Proof.
  unfold timings, scripts. intros Hbs.
  apply in_flat_map in Hbs as [j [_ Hbs]]. apply in_flat_map in Hbs as [tr [Htr Hbs]].
  set (n := (List.length es - j)%nat) in Hbs.
  assert (E : forall sep, events (mk_batches sep (firstn n es) tr (skipn n es ++ c)) = es ++ c).
  { intros sep. rewrite events_mk_batches, app_assoc, firstn_skipn. reflexivity. }
  split; [|destruct Hbs as [<-|[<-|[]]]; apply E].
  apply in_flat_map. exists (firstn n (map enorm es), skipn n (map enorm es)). split; [apply splits_firstn_skipn|].
  apply in_flat_map. exists tr. split; [exact Htr|].
  rewrite firstn_map, skipn_map, <- map_app.
  destruct Hbs as [<-|[<-|[]]]; rewrite bnorm_mk_batches; [left; reflexivity|].
  destruct (firstn n es) as [|x [|y r]]; [left; reflexivity..|right; left; reflexivity].
Qed.

(* layouts and cuts grouped by their normal form *)
Definition st_eqb (a b : st_class) : bool := match a, b with S200, S200 | SNot200, SNot200 => true | _, _ => false end.
Definition ct_eqb (a b : ct_class) : bool :=
  match a, b with CtOk, CtOk | CtMissing, CtMissing | CtBad, CtBad => true | _, _ => false end.
Definition md_eqb (a b : md_class) : bool := match a, b with MdOk, MdOk | MdBad, MdBad => true | _, _ => false end.
Definition aevent_eqb (a b : aevent) : bool :=
  match a, b with
  | AH h e, AH h' e' =>
      st_eqb (hi_st h) (hi_st h') && ct_eqb (hi_ct h) (hi_ct h') && gs_eqb (hi_gs h) (hi_gs h')
      && md_eqb (hi_md h) (hi_md h') && Bool.eqb e e'
  | AD e, AD e' => Bool.eqb e e'
  | AT t, AT t' => gs_eqb (ti_gs t) (ti_gs t') && md_eqb (ti_md t) (ti_md t')
  | ARst, ARst | AGoaway, AGoaway | ALost, ALost => true
  | _, _ => false
  end.

Lemma aevent_eqb_eq a b : aevent_eqb a b = true -> a = b.
Proof.
  destruct a as [[a1 a2 a3 a4] e|e|[a3 a4]| | |], b as [[b1 b2 b3 b4] e'|e'|[b3 b4]| | |];
    try discriminate; try reflexivity; cbn [aevent_eqb hi_st hi_ct hi_gs hi_md ti_gs ti_md].
  - destruct a1, b1; try discriminate; destruct a2, b2; try discriminate; destruct a3, b3; try discriminate;
      destruct a4, b4; try discriminate; destruct e, e'; try discriminate; reflexivity.
  - destruct e, e'; try discriminate; reflexivity.
  - destruct a3, b3; try discriminate; destruct a4, b4; try discriminate; reflexivity.
Qed.

Fixpoint list_eqb {A} (eqb : A -> A -> bool) (l l' : list A) : bool :=
  match l, l' with
  | [], [] => true
  | a :: r, b :: r' => eqb a b && list_eqb eqb r r'
  | _, _ => false
  end.

Lemma list_eqb_eq {A} (eqb : A -> A -> bool) (H : forall a b, eqb a b = true -> a = b) l :
  forall l', list_eqb eqb l l' = true -> l = l'.
Proof.
  induction l as [|a r IH]; intros [|b r']; cbn [list_eqb]; try discriminate; [reflexivity|].
  intros [Ha Hr]%andb_true_iff. f_equal; auto.
Qed.

Section Group.
  Context {A K : Type} (eqb : K -> K -> bool) (eqb_eq : forall a b, eqb a b = true -> a = b) (f : A -> K).
  Fixpoint insert (k : K) (x : A) (g : list (K * list A)) : list (K * list A) :=
    match g with
    | [] => [(k, [x])]
    | (k', xs) :: r => if eqb k k' then (k', x :: xs) :: r else (k', xs) :: insert k x r
    end.
  Definition group_by (l : list A) : list (K * list A) := fold_right (fun x => insert (f x) x) [] l.

  Lemma insert_covers k x g k0 y :
    (k0 = k /\ y = x) \/ (exists xs, In (k0, xs) g /\ In y xs) ->
    exists xs, In (k0, xs) (insert k x g) /\ In y xs.
  Proof.
    induction g as [|[k' xs] r IH]; cbn [insert].
    - intros [[-> ->]|[xs [[] _]]]. exists [x]. split; left; reflexivity.
    - destruct (eqb k k') eqn:E.
      + apply eqb_eq in E as <-. intros [[-> ->]|[xs0 [[[= <- <-]|H] Hy]]].
        * exists (x :: xs). split; left; reflexivity.
        * exists (x :: xs). split; [left; reflexivity|right; exact Hy].
        * exists xs0. split; [right; exact H|exact Hy].
      + intros [H|[xs0 [[[= <- <-]|H] Hy]]].
        * destruct (IH (or_introl H)) as [ys [H1 H2]]. exists ys. split; [right; exact H1|exact H2].
        * exists xs. split; [left; reflexivity|exact Hy].
        * destruct (IH (or_intror (ex_intro _ xs0 (conj H Hy)))) as [ys [H1 H2]].
          exists ys. split; [right; exact H1|exact H2].
  Qed.

  Lemma group_by_covers l x : In x l -> exists xs, In (f x, xs) (group_by l) /\ In x xs.
  Proof.
    induction l as [|a r IH]; intros []; cbn [group_by fold_right]; apply insert_covers.
    - left. subst. split; reflexivity.
    - right. apply IH. assumption.
  Qed.
End Group.

Definition classes : list (list aevent) -> list (list aevent * list (list aevent)) :=
  group_by (list_eqb aevent_eqb) (map enorm).

(* neither the call program nor the checks look at the cardinality of the request ... *)
Definition canon (k : kind) : kind :=
  match k with Call _ ss => Call false ss | Open _ _ p => Open false false p end.
Definition others : list kind := Call false true :: open_kinds.

Lemma canon_same lis k m :
  triggers_of (lis, canon k, m) = triggers_of (lis, k, m) /\
  (forall bs, outcome lis (canon k) bs = outcome lis k bs) /\
  (forall bs r, checks (canon k) bs r = checks k bs r).
Proof. destruct k; repeat split. Qed.

Lemma canon_cases k : In k (call_kinds ++ open_kinds) -> canon k = Call false false \/ In (canon k) others.
Proof.
  intros H. apply in_app_or in H as [H|H].
  - cbn in H. decompose [or] H; subst; cbn; auto. contradiction.
  - right. right. apply in_map_iff in H as [p [<- H]]. exact (in_map (Open false false) _ _ H).
Qed.

(* ... and the checks tell the kinds apart only through d2d: the unary-reply __call__ (class D2d) from
   the rest *)
Lemma checks_others k bs r : In k others -> checks k bs r = checks (Call false true) bs r.
Proof. intros [<-|[p [<- _]]%in_map_iff]; reflexivity. Qed.

Lemma open_cardinality_irrelevant lis cs ss cs' ss' p bs :
  outcome lis (Open cs ss p) bs = outcome lis (Open cs' ss' p) bs /\
  defect (Open cs ss p) bs = defect (Open cs' ss' p) bs.
Proof. split; reflexivity. Qed.

Definition result_eqb (a b : result) : bool :=
  match a, b with
  | ROk n, ROk n' => Nat.eqb n n'
  | RExc e, _ => raises b e
  | RHang, RHang | RStuck, RStuck => true
  | _, _ => false
  end.

Lemma result_eqb_eq a b : result_eqb a b = true -> a = b.
Proof.
  destruct a as [n|e| |], b as [n'|e'| |]; try discriminate; try reflexivity; cbn [result_eqb].
  - intros ->%Nat.eqb_eq. reflexivity.
  - intros H. symmetry. apply raises_eq. exact H.
Qed.

(* the outcomes of the kinds ks on a layout and a cut over all timings, each listed once *)
Definition outcomes (lis : listeners) (m : nat) (ks : list kind) (es c : list aevent) : list result :=
  map fst (group_by result_eqb (fun r => r)
             (flat_map (fun k => map (outcome lis k) (scripts (triggers_of (lis, k, m)) es c)) ks)).

Lemma outcomes_covers lis m ks es c k bs :
  In k ks -> In bs (scripts (triggers_of (lis, k, m)) es c) -> In (outcome lis k bs) (outcomes lis m ks es c).
Proof.
  intros Hk Hbs. unfold outcomes.
  assert (H : In (outcome lis k bs)
                 (flat_map (fun k => map (outcome lis k) (scripts (triggers_of (lis, k, m)) es c)) ks)).
  { apply in_flat_map. exists k. split; [exact Hk|]. apply in_map. exact Hbs. }
  apply (group_by_covers _ result_eqb_eq (fun r => r)) in H as [xs [H _]]. exact (in_map fst _ _ H).
Qed.

(* For every class of layouts of at most m messages and every class of cuts, the outcomes of all kinds in all
   timings are computed on the normal form, and the ten checks of every member of the class are applied to them. *)
Definition sweep (lis : listeners) (m : nat) : bool :=
  forallb (fun '(er, layouts) => forallb (fun '(cr, cuts) =>
    let unary := outcomes lis m [Call false false] er cr in
    let other := outcomes lis m others er cr in
    forallb (fun es => forallb (fun c =>
      forallb (checks (Call false false) (one (es ++ c))) unary
      && forallb (checks (Call false true) (one (es ++ c))) other) cuts) layouts)
    (classes all_cuts)) (classes (all_layouts m)).

Lemma sweep_sound lis m : sweep lis m = true ->
  forall k bs, In k (call_kinds ++ open_kinds) -> In bs (cases_of (lis, k, m)) -> all_checks lis k bs = true.
Proof.
  unfold sweep, cases_of, all_scripts. intros H k bs Hk Hbs.
  apply in_flat_map in Hbs as [es [Hes Hbs]]. apply in_flat_map in Hbs as [c [Hc Hbs]].
  apply (group_by_covers _ (list_eqb_eq _ aevent_eqb_eq) (map enorm)) in Hes as [layouts [Her Hes]],
    Hc as [cuts [Hcr Hc]].
  rewrite forallb_forall in H. specialize (H _ Her). cbv beta iota in H.
  rewrite forallb_forall in H. specialize (H _ Hcr). cbv beta iota zeta in H.
  rewrite forallb_forall in H. specialize (H _ Hes).
  rewrite forallb_forall in H. specialize (H _ Hc). apply andb_true_iff in H as [Hu Ho].
  rewrite forallb_forall in Hu, Ho.
  (* the cell of k and bs is the cell of canon k, the normal form of bs and the one-batch script *)
  destruct (canon_same lis k m) as (Et & Eo & Ec). rewrite <- Et in Hbs.
  apply timings_covered in Hbs as [Hbs E].
  unfold all_checks. rewrite <- (outcome_norm lis k bs), <- Eo, <- Ec.
  rewrite (checks_events _ bs (one (es ++ c))) by (rewrite E; symmetry; apply app_nil_r).
  destruct (canon_cases k Hk) as [Ek|Hk'].
  - rewrite Ek in Hbs |- *.
    exact (Hu _ (outcomes_covers lis m [Call false false] _ _ _ _ (or_introl eq_refl) Hbs)).
  - rewrite (checks_others _ _ _ Hk'). exact (Ho _ (outcomes_covers lis m others _ _ _ _ Hk' Hbs)).
Qed.

(* THE enumeration (Model/ClientCall.v: configs): the 4 __call__ kinds and 8 open() bodies, (a) without
   listeners, up to 2 messages, (b) with suspending listeners on all three receive events, up to 1
   message and the extra trigger TL (delivery during a listener suspension); every layout
   with up to 2 messages, every cut, every split point, both batchings, every trigger *)
Lemma domain_checked : sweep no_listeners 2 && sweep all_listeners 1 = true.
Proof. vm_compute. reflexivity. Qed.

Lemma domain lis k m bs : In (lis, k, m) configs -> In bs (cases_of (lis, k, m)) -> all_checks lis k bs = true.
Proof.
  pose proof domain_checked as H. apply andb_true_iff in H as [H2 H1].
  intros Hc. apply in_app_or in Hc as [Hc|Hc]; apply in_map_iff in Hc as [k' [[= <- <- <-] Hc]];
    apply sweep_sound; assumption.
Qed.

Lemma domain_cell lis k m bs :
  In (lis, k, m) configs -> In bs (cases_of (lis, k, m)) -> cell k bs (outcome lis k bs).
Proof. intros Hk Hbs. apply checks_cell. exact (domain lis k m bs Hk Hbs). Qed.

Lemma enumerated_scripts_wf lis k m bs : In (lis, k, m) configs -> In bs (cases_of (lis, k, m)) -> wf_script bs = true.
Proof. intros Hk Hbs. exact (c_wf _ _ _ (domain_cell lis k m bs Hk Hbs)). Qed.

(* the refuted cells: the full-strength statements are false of the faithful model *)
Definition H_ok (g : gs_class) (m : md_class) : hinfo :=
  {| hi_st := S200; hi_ct := CtOk; hi_gs := g; hi_md := m |}.
Definition T_of (g : gs_class) : tinfo := {| ti_gs := g; ti_md := MdOk |}.

(* D2c: malformed user -bin metadata in an otherwise perfect OK response: binascii.Error escapes *)
Lemma d2c_refuted :
  let bs := one [AH (H_ok GsAbsent MdBad) false; AD false; AT (T_of GsOk)] in
  wf_script bs = true /\ outcome no_listeners (Call false false) bs = RExc (XMetadata BHdr) /\
  spec_allows bs (outcome no_listeners (Call false false) bs) = false.
Proof. vm_compute. repeat split. Qed.

(* D2d: grpc-status OK without a message on a unary-reply call: AssertionError escapes *)
Lemma d2d_refuted :
  let bs := one [AH (H_ok GsOk MdOk) true] in
  wf_script bs = true /\ outcome no_listeners (Call false false) bs = RExc XAssertion /\
  spec_allows bs (outcome no_listeners (Call false false) bs) = false.
Proof. vm_compute. repeat split. Qed.

(* D2g: text/html with grpc-status in the headers, then RST_STREAM: the server's status, not UNKNOWN *)
Lemma d2g_refuted :
  let bs := one [AH {| hi_st := S200; hi_ct := CtBad; hi_gs := GsErr; hi_md := MdOk |} false; ARst] in
  wf_script bs = true /\ outcome no_listeners (Call false false) bs = RExc (XServer BHdr) /\
  spec_allows bs (outcome no_listeners (Call false false) bs) = false /\
  (* without the reset the same headers give UNKNOWN, as the statement says *)
  outcome no_listeners (Call false false) (one [AH {| hi_st := S200; hi_ct := CtBad; hi_gs := GsErr; hi_md := MdOk |} false])
  = RExc XContentType.
Proof. vm_compute. repeat split. Qed.

(* the full-strength table is therefore false on the enumerated domain *)
Lemma table_refuted :
  exists lis k m bs, In (lis, k, m) configs /\ wf_script bs = true /\ spec_allows bs (outcome lis k bs) = false.
Proof.
  exists no_listeners, (Call false false), 2%nat, (one [AH (H_ok GsOk MdOk) true]).
  split; [left; reflexivity|]. vm_compute. split; reflexivity.
Qed.

(* the state after everything that is still pending has been delivered *)
Definition final (s : state) (bs : list batch) : state :=
  fold_left (fun s b => apply_batch b s) bs s.

(* the part of the state the peer writes; the client only changes q and its own flags *)
Definition weq (a b : state) : Prop :=
  hdr a = hdr b /\ eof a = eof b /\ trl a = trl b /\ werr a = werr b /\ closing a = closing b /\
  h2closed a = h2closed b.

Lemma weq_refl a : weq a a.
Proof. repeat split. Qed.

Lemma weq_apply_event a b e : weq a b -> weq (apply_event a e) (apply_event b e).
Proof.
  intros (Hhdr & Heof & Htrl & Hwerr & Hcl & Hh2). unfold apply_event. rewrite Hcl.
  destruct (closing b) eqn:Eb; [repeat split; congruence|].
  destruct e; unfold weq; cbn; rewrite ?Hh2; try destruct (h2closed b) eqn:Eh; cbn; repeat split; congruence.
Qed.

Lemma weq_fold_events es : forall a b, weq a b -> weq (fold_left apply_event es a) (fold_left apply_event es b).
Proof.
  induction es as [|e r IH]; intros a b H; cbn [fold_left]; [exact H|].
  apply IH. apply weq_apply_event. exact H.
Qed.

Lemma weq_final bs : forall a b, weq a b -> weq (final a bs) (final b bs).
Proof.
  unfold final. induction bs as [|x r IH]; intros a b H; cbn [fold_left]; [exact H|].
  apply IH. unfold apply_batch. apply weq_fold_events. exact H.
Qed.

(* everything a receive operation can wait for is there, or the wrapper carries the error *)
Definition good (s : state) : bool := werr s || (has_hdr s && eof s).

Lemma good_weq a b : weq a b -> good a = good b.
Proof.
  intros (Hhdr & Heof & _ & Hwerr & _). unfold good, has_hdr. rewrite Hhdr, Heof, Hwerr. reflexivity.
Qed.

Lemma good_final_weq a b bs : weq a b -> good (final a bs) = good (final b bs).
Proof. intros H. apply good_weq. apply weq_final. exact H. Qed.

(* what the client writes does not matter *)
Lemma good_final_set_ri s bs : good (final (set_ri s) bs) = good (final s bs).
Proof. apply good_final_weq. repeat split. Qed.
Lemma good_final_set_tonly s bs : good (final (set_tonly s) bs) = good (final s bs).
Proof. apply good_final_weq. repeat split. Qed.
Lemma good_final_set_rt s bs : good (final (set_rt s) bs) = good (final s bs).
Proof. apply good_final_weq. repeat split. Qed.
Lemma good_final_pop_msg s bs : good (final (pop_msg s) bs) = good (final s bs).
Proof. apply good_final_weq. repeat split. Qed.
#[local] Hint Rewrite good_final_set_ri good_final_set_tonly good_final_set_rt good_final_pop_msg : client_writes.

Lemma good_ready F :
  good F = true -> werr F = false -> has_hdr F = true /\ data_ready F = true /\ trl_ready F = true.
Proof.
  unfold good, data_ready, trl_ready. intros Hg Hw. rewrite Hw in Hg. apply andb_true_iff in Hg as [-> ->].
  rewrite !orb_true_r. repeat split.
Qed.

(* a wait whose condition holds at the end neither hangs nor loses the invariant *)
Lemma wait_safe cond (Hc : forall F, good F = true -> werr F = false -> cond F = true) : forall bs s,
  good (final s bs) = true -> werr s = false ->
  match wait cond s bs with
  | WReady s' bs' | WTerm s' bs' => good (final s' bs') = true
  | WHang => False
  end.
Proof.
  induction bs as [|b r IH]; intros s Hg Hw; cbn [wait]; destruct (cond s) eqn:E; try exact Hg.
  - rewrite (Hc s Hg Hw) in E. discriminate.
  - destruct (werr (apply_batch b s)) eqn:E'; [exact Hg|apply IH; assumption].
Qed.

(* m has not hung and leaves a state in which nothing can; Stuck is no concern of this part (on the
   bounded domain c_not_stuck excludes it) *)
Definition safe {A} (m : step A) : Prop :=
  match m with
  | Ret _ s bs => good (final s bs) = true
  | Raise _ s bs => good (final s bs) = true
  | Hangs => False
  | Stuck => True
  end.

Lemma safe_bind {A B} (m : step A) (f : A -> state -> list batch -> step B) :
  safe m -> (forall a s bs, good (final s bs) = true -> safe (f a s bs)) -> safe (bind m f).
Proof. destruct m as [a s bs|e s bs| |]; cbn [bind safe]; intros Hm Hf; auto. Qed.

Lemma listen_then_safe {A} on s bs (k : state -> list batch -> step A) :
  good (final s bs) = true ->
  (forall s' bs', good (final s' bs') = true -> safe (k s' bs')) ->
  safe (listen_then on s bs k).
Proof.
  intros Hg Hk. unfold listen_then. destruct on; [|apply Hk; exact Hg].
  destruct bs as [|b r]; [apply Hk; exact Hg|].
  destruct (b_trig b); try (apply Hk; exact Hg).
  assert (Hf : final (apply_batch b s) r = final s (b :: r)) by reflexivity.
  destruct (werr (apply_batch b s)); [cbn [safe]|apply Hk]; rewrite Hf; exact Hg.
Qed.

Lemma recv_initial_safe lis s bs : good (final s bs) = true -> safe (recv_initial lis s bs).
Proof.
  intros Hg. unfold recv_initial.
  destruct (ri_done s); [exact Hg|]. destruct (werr s) eqn:Hw; [exact Hg|].
  pose proof (wait_safe has_hdr (fun F H H' => proj1 (good_ready F H H')) bs s Hg Hw) as Hwait.
  destruct (wait has_hdr s bs) as [s' bs'|s' bs'|]; [clear Hg|exact Hwait..].
  destruct (hdr s') as [h|]; [|exact I].
  assert (Hg1 : good (final (set_ri s') bs') = true) by (autorewrite with client_writes; exact Hwait).
  assert (Hg2 : good (final (set_tonly (set_ri s')) bs') = true) by (autorewrite with client_writes; exact Hwait).
  (* every path ends in Ret or Raise, after at most two dispatches to a listener *)
  destruct (hi_st h), (hi_ct h), (hi_gs h), (hi_md h);
    repeat (apply listen_then_safe; [assumption|intros ? ? ?]); assumption.
Qed.

Lemma recv_message_safe lis s bs : good (final s bs) = true -> safe (recv_message lis s bs).
Proof.
  intros Hg. unfold recv_message. apply safe_bind.
  - destruct (ri_done s); [exact Hg|]. apply recv_initial_safe. exact Hg.
  - clear s bs Hg. intros _ s bs Hg. destruct (werr s) eqn:Hw; [exact Hg|].
    pose proof (wait_safe data_ready (fun F H H' => proj1 (proj2 (good_ready F H H'))) bs s Hg Hw) as Hwait.
    destruct (wait data_ready s bs) as [s' bs'|s' bs'|]; [|exact Hwait..].
    destruct (0 <? Z.of_nat (q s')); [|exact Hwait].
    apply listen_then_safe; [autorewrite with client_writes; exact Hwait|auto].
Qed.

Lemma recv_trailing_safe lis s bs : good (final s bs) = true -> safe (recv_trailing lis s bs).
Proof.
  intros Hg. unfold recv_trailing.
  destruct (negb (ri_done s)); [exact Hg|]. destruct (rt_done s); [exact Hg|].
  destruct (tonly s); [cbn [safe]; autorewrite with client_writes; exact Hg|].
  destruct (werr s) eqn:Hw; [exact Hg|].
  pose proof (wait_safe trl_ready (fun F H H' => proj2 (proj2 (good_ready F H H'))) bs s Hg Hw) as Hwait.
  destruct (wait trl_ready s bs) as [s' bs'|s' bs'|]; [|exact Hwait..].
  assert (Hg1 : good (final (set_rt s') bs') = true) by (autorewrite with client_writes; exact Hwait).
  destruct (trl s') as [t|]; [|exact Hg1].
  destruct (ti_gs t); try exact Hg1; (destruct (ti_md t); [|exact Hg1]); apply listen_then_safe; auto.
Qed.

Lemma iterate_safe lis fuel : forall n s bs, good (final s bs) = true -> safe (iterate lis fuel n s bs).
Proof.
  induction fuel as [|f IH]; intros n s bs Hg; cbn [iterate]; [exact I|].
  apply safe_bind; [apply recv_message_safe; exact Hg|].
  intros got s1 bs1 Hg1. destruct got; [apply IH; exact Hg1|exact Hg1].
Qed.

Lemma run_op_safe lis fuel o got s bs : good (final s bs) = true -> safe (run_op lis fuel o got s bs).
Proof.
  intros Hg. destruct o; cbn [run_op].
  - apply safe_bind; [apply recv_initial_safe; exact Hg|auto].
  - apply safe_bind; [apply recv_message_safe; exact Hg|auto].
  - apply iterate_safe. exact Hg.
  - apply safe_bind; [apply recv_trailing_safe; exact Hg|auto].
Qed.

Lemma deliver_before_final k : forall bs s s' bs',
  deliver_before k s bs = (s', bs') -> final s' bs' = final s bs.
Proof.
  induction bs as [|b r IH]; intros s s' bs' H; cbn [deliver_before] in H; [injection H as <- <-; reflexivity|].
  destruct (b_trig b) as [|k'|]; [|destruct (Nat.leb k' k); [exact (IH _ _ _ H)|]|]; injection H as <- <-; reflexivity.
Qed.

Lemma run_prog_safe lis fuel : forall ops k got s bs,
  good (final s bs) = true -> safe (run_prog lis fuel k ops got s bs).
Proof.
  induction ops as [|o r IH]; intros k got s bs Hg; cbn [run_prog];
    destruct (deliver_before k s bs) as [s0 bs0] eqn:Ed;
    apply deliver_before_final in Ed; rewrite <- Ed in Hg.
  - exact Hg.
  - apply safe_bind; [apply run_op_safe; exact Hg|]. intros g s1 bs1 H. apply IH. exact H.
Qed.

Lemma maybe_finish_safe lis s bs : good (final s bs) = true -> safe (maybe_finish lis s bs).
Proof.
  intros Hg. unfold maybe_finish.
  apply safe_bind.
  - destruct (ri_done s); [exact Hg|]. apply recv_initial_safe. exact Hg.
  - intros _ s1 bs1 H. destruct (rt_done s1); [exact H|]. apply recv_trailing_safe. exact H.
Qed.

Lemma finish_no_hang {A} lis (body : step A) (ok : A -> result) :
  safe body -> (forall a, ok a <> RHang) -> finish lis body ok <> RHang.
Proof.
  intros Hs Hok. destruct body as [a s bs|e s bs| |]; cbn [finish safe] in *.
  - unfold aexit. pose proof (maybe_finish_safe lis s bs Hs) as Hm.
    destruct (maybe_finish lis s bs) as [u s' bs'|e s' bs'| |]; cbn [safe] in Hm;
      [apply Hok|discriminate|contradiction|discriminate].
  - cbn [aexit]. discriminate.
  - contradiction.
  - discriminate.
Qed.

Lemma outcome_no_hang lis k bs : good (final init bs) = true -> outcome lis k bs <> RHang.
Proof.
  intros Hg. destruct k as [cs [|]|cs ss prog]; cbn [outcome]; apply finish_no_hang.
  - apply iterate_safe. exact Hg.
  - discriminate.
  - apply recv_message_safe. exact Hg.
  - intros [|]; discriminate.
  - apply run_prog_safe. exact Hg.
  - discriminate.
Qed.

Lemma final_events : forall bs s, final s bs = fold_left apply_event (events bs) s.
Proof.
  unfold final, events. induction bs as [|b r IH]; intros s; cbn [fold_left flat_map]; [reflexivity|].
  rewrite fold_left_app. apply IH.
Qed.

(* a closed connection drops all further input (apply_event), so nothing could set the wrapper error
   later; the event that closes it has set it: without the error the connection is open *)
Definition closing_werr (s : state) : Prop := werr s = false -> closing s = false.

Lemma closing_werr_apply s e : closing_werr s -> closing_werr (apply_event s e).
Proof.
  unfold closing_werr, apply_event. intros H. destruct (closing s) eqn:Ec; [rewrite Ec; exact H|].
  destruct e; try (destruct (h2closed s)); cbn; auto.
Qed.

Lemma werr_mono s e : werr s = true -> werr (apply_event s e) = true.
Proof.
  unfold apply_event. intros H. destruct (closing s); [exact H|].
  destruct e; try (destruct (h2closed s)); cbn; auto.
Qed.

Lemma werr_mono_fold es : forall s, werr s = true -> werr (fold_left apply_event es s) = true.
Proof. induction es as [|e r IH]; intros s H; cbn [fold_left]; [exact H|]. apply IH. apply werr_mono. exact H. Qed.

Lemma good_mono s e : good s = true -> good (apply_event s e) = true.
Proof.
  unfold good, apply_event. intros H. destruct (closing s); [exact H|].
  destruct (werr s) eqn:Hw.
  - destruct e; try (destruct (h2closed s)); cbn; rewrite ?Hw; reflexivity.
  - cbn [orb] in H. apply andb_true_iff in H as [Hh He].
    unfold has_hdr in *.
    destruct e; try (destruct (h2closed s)); cbn; rewrite ?Hw, ?He, ?Hh; cbn;
      rewrite ?Hh, ?orb_true_r; reflexivity.
Qed.

Lemma good_mono_fold es : forall s, good s = true -> good (fold_left apply_event es s) = true.
Proof. induction es as [|e r IH]; intros s H; cbn [fold_left]; [exact H|]. apply IH. apply good_mono. exact H. Qed.

Lemma werr_good s : werr s = true -> good s = true.
Proof. unfold good. intros ->. reflexivity. Qed.

Definition is_cut (e : aevent) : bool := match e with ARst | AGoaway | ALost => true | _ => false end.

(* what a HEADERS, DATA or trailers frame does to an open connection *)
Lemma apply_frame s x : closing s = false -> is_cut x = false ->
  werr (apply_event s x) = werr s /\
  h2closed (apply_event s x) = h2closed s || ev_end x /\ eof (apply_event s x) = eof s || ev_end x /\
  has_hdr (apply_event s x) = has_hdr s || match x with AH _ _ => true | _ => false end.
Proof.
  intros Hc Hx. unfold apply_event, has_hdr. rewrite Hc.
  destruct x; try discriminate; cbn; rewrite ?orb_true_r, ?orb_false_r; repeat split.
Qed.

Lemma ev_cut_frame x r e : is_cut x = false -> ev_cut (x :: r) e = ev_cut r (e || ev_end x).
Proof. destruct x; try discriminate; reflexivity. Qed.

(* an effective cut sets the wrapper error *)
Lemma cut_sets_werr : forall es s e,
  closing_werr s -> (h2closed s = true -> e = true \/ werr s = true) ->
  ev_cut es e = true -> werr (fold_left apply_event es s) = true.
Proof.
  induction es as [|x r IH]; intros s e Hcw Hh Hcut; [discriminate|]. cbn [fold_left].
  destruct (werr s) eqn:Hw; [apply werr_mono_fold; apply werr_mono; exact Hw|].
  pose proof (Hcw Hw) as Hc.
  destruct (is_cut x) eqn:Hx.
  - (* a cut: effective unless it is a reset of a stream that has ended *)
    destruct x; try discriminate; cbn [ev_cut] in Hcut;
      try (apply werr_mono_fold; unfold apply_event; rewrite Hc; reflexivity).
    destruct e.
    + apply (IH _ true); [apply closing_werr_apply; exact Hcw| |exact Hcut]. intros _. left. reflexivity.
    + apply werr_mono_fold. unfold apply_event. rewrite Hc.
      destruct (h2closed s) eqn:E2; [|reflexivity]. destruct (Hh eq_refl) as [Hx'|Hx']; discriminate.
  - rewrite (ev_cut_frame _ _ _ Hx) in Hcut. destruct (apply_frame s x Hc Hx) as (Hw' & H2 & _).
    apply (IH _ (e || ev_end x)); [apply closing_werr_apply; exact Hcw| |exact Hcut].
    rewrite H2, Hw', Hw. intros [H|H]%orb_true_iff; left.
    + destruct (Hh H) as [->|]; [reflexivity|discriminate].
    + rewrite H. apply orb_true_r.
Qed.

Lemma wf_after_cut r seen ended : wf_events r seen ended true = true -> r = [].
Proof. destruct r as [|x r]; [reflexivity|]. cbn [wf_events negb andb]. discriminate. Qed.

(* END_STREAM in a well-formed script: the headers and the end of the stream are there at the end *)
Lemma ended_makes_good : forall es s seen ended,
  closing_werr s -> wf_events es seen ended false = true ->
  (seen = true -> has_hdr s = true \/ werr s = true) ->
  ev_ended es = true -> good (fold_left apply_event es s) = true.
Proof.
  unfold ev_ended.
  induction es as [|x r IH]; intros s seen ended Hcw Hwf Hseen Ht; [discriminate|].
  cbn [fold_left existsb] in *. cbn [wf_events negb andb] in Hwf.
  destruct (werr s) eqn:Hw; [apply good_mono_fold, werr_good, werr_mono; exact Hw|].
  pose proof (Hcw Hw) as Hc.
  destruct (is_cut x) eqn:Hx.
  - (* nothing follows a cut *)
    destruct x; try discriminate; apply wf_after_cut in Hwf; subst r; discriminate.
  - destruct (apply_frame s x Hc Hx) as (_ & _ & He & Hh).
    assert (Hhdr : has_hdr (apply_event s x) = true /\ exists seen', wf_events r seen' (ev_end x) false = true).
    { destruct x as [h e'|e'|t| | |]; try discriminate; rewrite Hh; cbn [ev_end];
        repeat (apply andb_true_iff in Hwf as [Hwf ?]).
      - (* HEADERS *) split; [apply orb_true_r|]. exists true. assumption.
      - (* DATA: well-formed only after HEADERS *)
        subst seen. destruct (Hseen eq_refl) as [->|]; [|discriminate]. split; [reflexivity|]. exists true. assumption.
      - (* trailers: the same *)
        subst seen. destruct (Hseen eq_refl) as [->|]; [|discriminate]. split; [reflexivity|]. exists true. assumption. }
    destruct Hhdr as (Hhdr & seen' & Hwf'). destruct (ev_end x) eqn:Ee.
    + apply good_mono_fold. unfold good. rewrite Hhdr, He, orb_true_r. apply orb_true_r.
    + apply (IH _ seen' false (closing_werr_apply _ _ Hcw) Hwf'); [intros _; left; exact Hhdr|exact Ht].
Qed.

Lemma closing_werr_init : closing_werr init. Proof. intros _. reflexivity. Qed.

(* THE liveness theorem: for every kind of call, every body of an open() context, every set of suspending
   listeners and every delivery schedule -- once the response was effectively cut (GOAWAY, connection loss,
   RST_STREAM before END_STREAM), or is well-formed and ends in END_STREAM (on the headers, on DATA or on
   trailers), the call finishes *)
Lemma no_hang_general lis k bs :
  ev_cut (events bs) false = true \/ (wf_script bs = true /\ ev_ended (events bs) = true) ->
  outcome lis k bs <> RHang.
Proof.
  intros H. apply outcome_no_hang. rewrite final_events. destruct H as [Hcut|[Hwf Ht]].
  - apply werr_good. apply (cut_sets_werr _ _ false closing_werr_init); [|exact Hcut]. cbn. discriminate.
  - apply (ended_makes_good _ _ false false closing_werr_init Hwf); [discriminate|exact Ht].
Qed.
