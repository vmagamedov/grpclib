(* Proofs for Props/C14.v: UTF-8 and percent-escape round trips for every scalar-value string, wire
   safety of the encoded grpc-message, the status round trip through the trailers, validity of
   whatever the decoder returns. *)
From Coq Require Import String ZArith List Bool Lia ZifyBool.
From GV Require Import Lib.Str Lib.StrFacts Gen.Facts Model.Base64 Model.Metadata Model.Utf8 Model.Percent
  Model.StatusWire Proofs.C13Proofs.
Import ListNotations.
Open Scope Z_scope.

#[local] Ltac Zify.zify_post_hook ::= Z.div_mod_to_equations.

(* The decoder on a non-empty input, the tail left alone.  Its error branches restart on the tail:
   `cbn` on b0 :: b1 :: b2 :: b3 :: r unfolds those as well and the goal grows with every byte. *)
Lemma dec_cons b0 r :
  utf8_decode_replace (b0 :: r) =
  if b0 <? 128 then b0 :: utf8_decode_replace r
  else if b0 <? 194 then REPL :: utf8_decode_replace r
  else if b0 <? 224 then
    match r with
    | [] => [REPL]
    | b1 :: r1 =>
        if is_cont b1 then ((b0 - 192) * 64 + (b1 - 128)) :: utf8_decode_replace r1
        else REPL :: utf8_decode_replace r
    end
  else if b0 <? 240 then
    match r with
    | [] => [REPL]
    | b1 :: r1 =>
        if negb (is_cont b1) || (b0 =? 224) && (b1 <? 160) || (b0 =? 237) && (160 <=? b1)
        then REPL :: utf8_decode_replace r
        else
          match r1 with
          | [] => [REPL]
          | b2 :: r2 =>
              if is_cont b2
              then ((b0 - 224) * 4096 + (b1 - 128) * 64 + (b2 - 128)) :: utf8_decode_replace r2
              else REPL :: utf8_decode_replace r1
          end
    end
  else if b0 <? 245 then
    match r with
    | [] => [REPL]
    | b1 :: r1 =>
        if negb (is_cont b1) || (b0 =? 240) && (b1 <? 144) || (b0 =? 244) && (144 <=? b1)
        then REPL :: utf8_decode_replace r
        else
          match r1 with
          | [] => [REPL]
          | b2 :: r2 =>
              if is_cont b2 then
                match r2 with
                | [] => [REPL]
                | b3 :: r3 =>
                    if is_cont b3
                    then ((b0 - 240) * 262144 + (b1 - 128) * 4096 + (b2 - 128) * 64 + (b3 - 128))
                         :: utf8_decode_replace r3
                    else REPL :: utf8_decode_replace r2
                end
              else REPL :: utf8_decode_replace r1
          end
    end
  else REPL :: utf8_decode_replace r.
Proof. reflexivity. Qed.

Lemma dec_ascii1 b r : b < 128 -> utf8_decode_replace (b :: r) = b :: utf8_decode_replace r.
Proof. intros Hb. rewrite dec_cons. replace (b <? 128) with true by lia. reflexivity. Qed.

Lemma dec_two b0 b1 r :
  194 <= b0 < 224 -> is_cont b1 = true ->
  utf8_decode_replace (b0 :: b1 :: r) = ((b0 - 192) * 64 + (b1 - 128)) :: utf8_decode_replace r.
Proof.
  intros H0 C1. rewrite dec_cons, C1.
  replace (b0 <? 128) with false by lia. replace (b0 <? 194) with false by lia.
  replace (b0 <? 224) with true by lia. reflexivity.
Qed.

(* the last hypothesis is the decoder's own test for a first continuation byte that would give an
   overlong form or a surrogate *)
Lemma dec_three b0 b1 b2 r :
  224 <= b0 < 240 -> is_cont b1 = true -> is_cont b2 = true ->
  (b0 =? 224) && (b1 <? 160) || (b0 =? 237) && (160 <=? b1) = false ->
  utf8_decode_replace (b0 :: b1 :: b2 :: r) =
  ((b0 - 224) * 4096 + (b1 - 128) * 64 + (b2 - 128)) :: utf8_decode_replace r.
Proof.
  intros H0 C1 C2 Hx. rewrite dec_cons, C1. cbn [negb orb]. rewrite Hx, C2.
  replace (b0 <? 128) with false by lia. replace (b0 <? 194) with false by lia.
  replace (b0 <? 224) with false by lia. replace (b0 <? 240) with true by lia. reflexivity.
Qed.

(* the last hypothesis: the first continuation byte gives neither an overlong form nor a value above 10FFFF *)
Lemma dec_four b0 b1 b2 b3 r :
  240 <= b0 < 245 -> is_cont b1 = true -> is_cont b2 = true -> is_cont b3 = true ->
  (b0 =? 240) && (b1 <? 144) || (b0 =? 244) && (144 <=? b1) = false ->
  utf8_decode_replace (b0 :: b1 :: b2 :: b3 :: r) =
  ((b0 - 240) * 262144 + (b1 - 128) * 4096 + (b2 - 128) * 64 + (b3 - 128)) :: utf8_decode_replace r.
Proof.
  intros H0 C1 C2 C3 Hx. rewrite dec_cons, C1. cbn [negb orb]. rewrite Hx, C2, C3.
  replace (b0 <? 128) with false by lia. replace (b0 <? 194) with false by lia.
  replace (b0 <? 224) with false by lia. replace (b0 <? 240) with false by lia.
  replace (b0 <? 245) with true by lia. reflexivity.
Qed.

Lemma dec_enc1 c rest :
  is_scalar c = true ->
  utf8_decode_replace (utf8_enc1 c ++ rest) = c :: utf8_decode_replace rest.
Proof.
  intros Hs. unfold is_scalar, in_range in Hs.
  unfold utf8_enc1.
  destruct (c <? 128) eqn:E1.
  { apply dec_ascii1. lia. }
  destruct (c <? 2048) eqn:E2.
  { cbn [app]. rewrite dec_two by (unfold is_cont, in_range; lia). f_equal. lia. }
  destruct (c <? 65536) eqn:E3.
  { cbn [app]. rewrite dec_three by (unfold is_cont, in_range; lia). f_equal. lia. }
  cbn [app]. rewrite dec_four by (unfold is_cont, in_range; lia). f_equal. lia.
Qed.

Lemma enc1_bytes c : is_scalar c = true -> bytes_ok (utf8_enc1 c) = true.
Proof.
  intros Hs. unfold is_scalar, in_range in Hs.
  unfold utf8_enc1, bytes_ok, is_byte, in_range.
  destruct (c <? 128) eqn:E1; [cbn [forallb]; lia|].
  destruct (c <? 2048) eqn:E2; [cbn [forallb]; lia|].
  destruct (c <? 65536) eqn:E3; cbn [forallb]; lia.
Qed.

Lemma bytes_ok_app a b : bytes_ok (a ++ b) = bytes_ok a && bytes_ok b.
Proof. unfold bytes_ok. apply forallb_app. Qed.

Lemma scalars_ok_cons c s : scalars_ok (c :: s) = is_scalar c && scalars_ok s.
Proof. reflexivity. Qed.

(* str.encode succeeds exactly on the strings without lone surrogates, and raises
   UnicodeEncodeError on all the others (the error branch of the real code) *)
Lemma utf8_encode_eq s :
  utf8_encode s = if scalars_ok s then Some (flat_map utf8_enc1 s) else None.
Proof.
  induction s as [|c s IH]; [reflexivity|].
  cbn [utf8_encode flat_map]. rewrite scalars_ok_cons, IH.
  destruct (is_scalar c), (scalars_ok s); reflexivity.
Qed.

Lemma utf8_roundtrip s :
  scalars_ok s = true ->
  bytes_ok (flat_map utf8_enc1 s) = true /\ utf8_decode_replace (flat_map utf8_enc1 s) = s.
Proof.
  induction s as [|c s IH]; intros Hs; [split; reflexivity|].
  rewrite scalars_ok_cons in Hs. apply andb_true_iff in Hs as [Hc Hs].
  destruct (IH Hs) as [Hok Hdec]. cbn [flat_map].
  rewrite bytes_ok_app, enc1_bytes, Hok, dec_enc1, Hdec by exact Hc. split; reflexivity.
Qed.

Lemma dec_all_ascii l : forallb is_ascii l = true -> utf8_decode_replace l = l.
Proof.
  induction l as [|c l IH]; intros H; [reflexivity|].
  cbn [forallb] in H. apply andb_true_iff in H as [Hc Hl].
  unfold is_ascii, in_range in Hc.
  rewrite dec_ascii1 by lia. rewrite IH by exact Hl. reflexivity.
Qed.

Lemma is_scalar_repl : is_scalar REPL = true.
Proof. reflexivity. Qed.

(* Whatever bytes arrive, the decoder returns a valid str: only scalar values, never a surrogate
   or a value above 10FFFF -- for malformed input as well.  An error branch gives U+FFFD, so that
   its goal is, up to computation, the induction hypothesis for the tail it restarts on. *)
Lemma dec_scalars : forall l, bytes_ok l = true -> scalars_ok (utf8_decode_replace l) = true.
Proof.
  fix IH 1. intros [|b0 r] Hok; [reflexivity|].
  apply bytes_ok_cons in Hok as [Hb0 Hr]. pose proof (IH r Hr) as IHr.
  rewrite dec_cons.
  destruct (b0 <? 128) eqn:E1.
  { rewrite scalars_ok_cons, IHr. unfold is_scalar, in_range. lia. }
  destruct (b0 <? 194) eqn:E2; [exact IHr|].
  destruct r as [|b1 r1].
  { destruct (b0 <? 224), (b0 <? 240), (b0 <? 245); reflexivity. }
  apply bytes_ok_cons in Hr as [_ Hr1]. pose proof (IH r1 Hr1) as IHr1.
  destruct (b0 <? 224) eqn:E3.
  { destruct (is_cont b1) eqn:C1; [|exact IHr].
    rewrite scalars_ok_cons, IHr1. unfold is_cont, is_scalar, in_range in *. lia. }
  destruct (b0 <? 240) eqn:E4.
  { destruct (negb (is_cont b1) || _ || _) eqn:C1; [exact IHr|].
    destruct r1 as [|b2 r2]; [reflexivity|].
    apply bytes_ok_cons in Hr1 as [_ Hr2].
    destruct (is_cont b2) eqn:C2; [|exact IHr1].
    rewrite scalars_ok_cons, (IH r2 Hr2). unfold is_cont, is_scalar, in_range in *. lia. }
  destruct (b0 <? 245) eqn:E5; [|exact IHr].
  destruct (negb (is_cont b1) || _ || _) eqn:C1; [exact IHr|].
  destruct r1 as [|b2 r2]; [reflexivity|].
  apply bytes_ok_cons in Hr1 as [_ Hr2].
  destruct (is_cont b2) eqn:C2; [|exact IHr1].
  pose proof (IH r2 Hr2) as IHr2. destruct r2 as [|b3 r3]; [reflexivity|].
  apply bytes_ok_cons in Hr2 as [_ Hr3].
  destruct (is_cont b3) eqn:C3; [|exact IHr2].
  rewrite scalars_ok_cons, (IH r3 Hr3). unfold is_cont, is_scalar, in_range in *. lia.
Qed.

(* The quoting lemmas are proved for an arbitrary `safe` argument of which only two things are
   known -- after quote_from_bytes normalised it, it holds printable ASCII and no '%' -- and are
   instantiated with _UNQUOTED (Gen.Facts.unquoted, regenerated on every run) at the end. *)
Definition safe_plain (safe : list Z) : bool :=
  forallb (fun c => printable c && negb (c =? PCT)) (safe_norm safe).

Lemma unquoted_facts : safe_plain unquoted = true.
Proof. vm_compute; reflexivity. Qed.

Lemma mem_z_iff b l : mem_z b l = true <-> In b l.
Proof.
  unfold mem_z. rewrite existsb_exists. split.
  - intros (x & Hin & Hx). apply Z.eqb_eq in Hx. subst x. exact Hin.
  - intros Hin. exists b. split; [exact Hin | apply Z.eqb_refl].
Qed.

Lemma hexval_hex_upper v : 0 <= v < 16 -> hexval (hex_upper v) = Some v.
Proof.
  intros Hv. unfold hex_upper, hexval. destruct (v <? 10) eqn:E.
  - destruct (in_range 48 57 (48 + v)) eqn:E1; unfold in_range in E1; [f_equal|]; lia.
  - destruct (in_range 48 57 (55 + v)) eqn:E1; [unfold in_range in E1; lia|].
    destruct (in_range 65 70 (55 + v)) eqn:E2; unfold in_range in E2; [f_equal|]; lia.
Qed.

Lemma hex_upper_is_upper_hex v : 0 <= v < 16 -> upper_hex (hex_upper v) = true.
Proof. intros Hv. unfold upper_hex, hex_upper, in_range. destruct (v <? 10) eqn:E; lia. Qed.

Lemma hexval_range c a : hexval c = Some a -> 0 <= a < 16.
Proof.
  unfold hexval.
  destruct (in_range 48 57 c) eqn:E1, (in_range 65 70 c) eqn:E2, (in_range 97 102 c) eqn:E3;
    intros [= <-]; unfold in_range in *; lia.
Qed.

Lemma unquote_impl_nil : unquote_impl [] = [].
Proof. reflexivity. Qed.

Lemma unquote_impl_plain c r :
  (c =? PCT) = false -> unquote_impl (c :: r) = c :: unquote_impl r.
Proof.
  intros Hc. unfold unquote_impl. cbn [split_pct].
  destruct (split_pct r) as [h t]. rewrite Hc. reflexivity.
Qed.

(* bytes.split(b'%') and the loop over the pieces, read as a recursion over the input: a '%' and
   two hexadecimal digits give a byte, any other '%' stays *)
Lemma unquote_impl_pct r :
  unquote_impl (PCT :: r) =
  match r with
  | h1 :: h2 :: r' =>
      match hexval h1, hexval h2 with
      | Some a, Some b => (a * 16 + b) :: unquote_impl r'
      | _, _ => PCT :: unquote_impl r
      end
  | _ => PCT :: unquote_impl r
  end.
Proof.
  unfold unquote_impl. destruct r as [|h1 [|h2 r']]; cbn [split_pct].
  - reflexivity.
  - destruct (h1 =? PCT); reflexivity.
  - destruct (split_pct r') as [h t]. change (PCT =? PCT) with true.
    destruct (Z.eqb_spec h1 PCT) as [->|_], (Z.eqb_spec h2 PCT) as [->|_];
      cbn [app flat_map unquote_item];
      try destruct (hexval h1); try destruct (hexval h2); reflexivity.
Qed.

Lemma unquote_impl_escape h1 h2 a b r :
  hexval h1 = Some a -> hexval h2 = Some b ->
  unquote_impl (PCT :: h1 :: h2 :: r) = (a * 16 + b) :: unquote_impl r.
Proof. intros Ha Hb. rewrite unquote_impl_pct, Ha, Hb. reflexivity. Qed.

Section Quote.
Variable safe : list Z.
Hypothesis Hsafe : safe_plain safe = true.

Lemma quote_byte_cases b :
  quote_byte (safe_norm safe) b = [b] /\ 32 <= b <= 126 /\ b <> 37 \/
  quote_byte (safe_norm safe) b = [PCT; hex_upper (b / 16); hex_upper (b mod 16)].
Proof.
  unfold quote_byte.
  destruct (always_safe b || mem_z b (safe_norm safe)) eqn:K; [left | right; reflexivity].
  split; [reflexivity|]. apply orb_true_iff in K as [K|K].
  - unfold always_safe, in_range in K. lia.
  - apply mem_z_iff in K.
    pose proof Hsafe as F. unfold safe_plain in F. rewrite forallb_forall in F. specialize (F b K).
    unfold printable, in_range, PCT in F. lia.
Qed.

Lemma unquote_quote_byte b rest :
  0 <= b <= 255 ->
  unquote_impl (quote_byte (safe_norm safe) b ++ rest) = b :: unquote_impl rest.
Proof.
  intros Hb. destruct (quote_byte_cases b) as [(-> & Hp & Hn) | ->]; cbn [app].
  - apply unquote_impl_plain. unfold PCT. lia.
  - rewrite (unquote_impl_escape _ _ (b / 16) (b mod 16)) by (apply hexval_hex_upper; lia).
    f_equal. lia.
Qed.

Lemma quote_from_bytes_cons b bs :
  quote_from_bytes safe (b :: bs) = quote_byte (safe_norm safe) b ++ quote_from_bytes safe bs.
Proof. reflexivity. Qed.

Lemma unquote_quote_bytes bs :
  bytes_ok bs = true -> unquote_impl (quote_from_bytes safe bs) = bs.
Proof.
  induction bs as [|b bs IH]; intros Hok; [reflexivity|].
  apply bytes_ok_cons in Hok as [Hb Hbs].
  rewrite quote_from_bytes_cons, unquote_quote_byte by exact Hb.
  rewrite IH by exact Hbs. reflexivity.
Qed.

Lemma well_escaped_quote_byte b rest :
  0 <= b <= 255 ->
  well_escaped (quote_byte (safe_norm safe) b ++ rest) = well_escaped rest.
Proof.
  intros Hb. destruct (quote_byte_cases b) as [(-> & Hp & Hn) | ->]; cbn [app well_escaped].
  - replace (b =? PCT) with false by (unfold PCT; lia).
    replace (printable b) with true by (unfold printable, in_range; lia). reflexivity.
  - change (PCT =? PCT) with true. rewrite !hex_upper_is_upper_hex by lia. reflexivity.
Qed.

Lemma well_escaped_quote bs :
  bytes_ok bs = true -> well_escaped (quote_from_bytes safe bs) = true.
Proof.
  induction bs as [|b bs IH]; intros Hok; [reflexivity|].
  apply bytes_ok_cons in Hok as [Hb Hbs].
  rewrite quote_from_bytes_cons, well_escaped_quote_byte by exact Hb. apply IH, Hbs.
Qed.

End Quote.

Lemma forallb_impl {A} (P Q : A -> bool) l :
  (forall x, P x = true -> Q x = true) -> forallb P l = true -> forallb Q l = true.
Proof. rewrite !forallb_forall. auto. Qed.

(* '%' and the hexadecimal digits are printable themselves *)
Lemma well_escaped_printable : forall l, well_escaped l = true -> forallb printable l = true.
Proof.
  fix IH 1. intros [|c r]; [reflexivity|]. cbn [well_escaped forallb].
  destruct (c =? PCT) eqn:E; intros H.
  - destruct r as [|h1 [|h2 r2]]; try discriminate.
    apply andb_true_iff in H as [H H2]. cbn [forallb]. rewrite (IH r2 H2).
    unfold upper_hex, printable, in_range, PCT in *. lia.
  - apply andb_true_iff in H as [Hc Hr]. rewrite Hc. exact (IH r Hr).
Qed.

Lemma printable_is_ascii l : forallb printable l = true -> forallb is_ascii l = true.
Proof. apply forallb_impl. intros c. unfold printable, is_ascii, in_range. lia. Qed.

(* unquote on an all-ASCII str: the shortcut for strings without '%' and the splitting into
   ASCII runs are transparent *)
Lemma unquote_impl_no_pct l : mem_z PCT l = false -> unquote_impl l = l.
Proof.
  induction l as [|c l IH]; intros H; [reflexivity|].
  unfold mem_z in H. cbn [existsb] in H. apply orb_false_iff in H as [Hc Hl].
  rewrite unquote_impl_plain, (IH Hl) by lia. reflexivity.
Qed.

Lemma unquote_parts_ascii l run :
  forallb is_ascii l = true -> unquote_parts l run = flush_run (rev_append l run).
Proof.
  revert run. induction l as [|c l IH]; intros run H; [reflexivity|].
  cbn [forallb] in H. apply andb_true_iff in H as [Hc Hl].
  cbn [unquote_parts rev_append]. rewrite Hc. apply IH, Hl.
Qed.

Lemma rev_append_twice {A} (l : list A) : rev_append (rev_append l []) [] = l.
Proof. rewrite !rev_append_rev, !app_nil_r. apply rev_involutive. Qed.

Lemma unquote_ascii e :
  forallb is_ascii e = true -> unquote e = utf8_decode_replace (unquote_impl e).
Proof.
  intros H. unfold unquote. destruct (mem_z PCT e) eqn:M.
  - rewrite unquote_parts_ascii by exact H. unfold flush_run.
    rewrite rev_append_twice. reflexivity.
  - rewrite unquote_impl_no_pct by exact M. symmetry. apply dec_all_ascii, H.
Qed.

Lemma encode_msg_eq s :
  encode_grpc_message s =
  if scalars_ok s then Some (quote_from_bytes unquoted (flat_map utf8_enc1 s)) else None.
Proof.
  unfold encode_grpc_message, quote. rewrite utf8_encode_eq.
  destruct (scalars_ok s); reflexivity.
Qed.

Lemma message_wire_safe :
  forall s e, encode_grpc_message s = Some e ->
  forallb printable e = true /\ well_escaped e = true.
Proof.
  intros s e H. rewrite encode_msg_eq in H.
  destruct (scalars_ok s) eqn:Hs; [injection H as <- | discriminate].
  pose proof (well_escaped_quote _ unquoted_facts _ (proj1 (utf8_roundtrip s Hs))) as W.
  split; [apply well_escaped_printable|]; exact W.
Qed.

Lemma message_roundtrip :
  forall s, scalars_ok s = true ->
  exists e, encode_grpc_message s = Some e /\ decode_grpc_message e = s.
Proof.
  intros s Hs. destruct (utf8_roundtrip s Hs) as [Hok Hdec].
  pose proof (encode_msg_eq s) as He. rewrite Hs in He.
  eexists. split; [exact He|]. destruct (message_wire_safe s _ He) as [Hp _].
  unfold decode_grpc_message. rewrite unquote_ascii by apply printable_is_ascii, Hp.
  rewrite (unquote_quote_bytes _ unquoted_facts) by exact Hok. exact Hdec.
Qed.

Lemma unquote_impl_bytes :
  forall l, forallb is_ascii l = true -> bytes_ok (unquote_impl l) = true.
Proof.
  unfold bytes_ok. fix IH 1. intros [|c r] H; [reflexivity|].
  cbn [forallb] in H. apply andb_true_iff in H as [Hc Hr]. pose proof (IH r Hr) as IHr.
  destruct (Z.eqb_spec c PCT) as [->|Hn].
  - rewrite unquote_impl_pct. destruct r as [|h1 [|h2 r']]; try exact IHr.
    destruct (hexval h1) as [a|] eqn:Ha; [|exact IHr].
    destruct (hexval h2) as [b|] eqn:Hb; [|exact IHr].
    apply hexval_range in Ha, Hb.
    cbn [forallb] in Hr. apply andb_true_iff in Hr as [_ Hr]. apply andb_true_iff in Hr as [_ Hr].
    cbn [forallb]. rewrite (IH r' Hr). unfold is_byte, in_range. lia.
  - rewrite unquote_impl_plain by lia. cbn [forallb]. rewrite IHr.
    unfold is_ascii, is_byte, in_range in *. lia.
Qed.

Lemma ascii_is_scalar l : forallb is_ascii l = true -> scalars_ok l = true.
Proof.
  apply forallb_impl. intros c. unfold is_ascii, is_scalar, in_range. lia.
Qed.

(* what h2 hands over is ASCII; whatever it is, decoding gives a valid str *)
Lemma decode_yields_valid_str :
  forall v, ascii_ok v = true -> scalars_ok (decode_grpc_message v) = true.
Proof.
  intros v H. unfold decode_grpc_message.
  change (forallb is_ascii v = true) in H.
  rewrite unquote_ascii by exact H.
  apply dec_scalars, unquote_impl_bytes, H.
Qed.

Lemma status_ok_is_0 : status_ok = 0.
Proof. vm_compute; reflexivity. Qed.

(* str(status.value) is ASCII and int() reads it back: checked on every member of Status *)
Definition decimal_reads_back (n : Z) : bool :=
  ascii_ok (decimal n) && match py_int (decimal n) with Some m => m =? n | None => false end.

Lemma decimal_members : forallb decimal_reads_back status_values = true.
Proof. vm_compute; reflexivity. Qed.

Lemma decimal_member st :
  In st status_values -> ascii_ok (decimal st) = true /\ py_int (decimal st) = Some st.
Proof.
  intros Hin. pose proof (proj1 (forallb_forall _ _) decimal_members st Hin) as F.
  apply andb_true_iff in F as [Ha F]. split; [exact Ha|].
  destruct (py_int (decimal st)); [f_equal; lia | discriminate].
Qed.

(* the status part of the trailers: three optional entries in a fixed order *)
Definition shape (sv : list Z) (mv dv : option (list Z)) : headers :=
  (grpc_status_key, sv)
  :: match mv with Some m => [(grpc_message_key, m)] | None => [] end
  ++ match dv with Some d => [(status_details_key, d)] | None => [] end.

(* the three header names are pairwise different *)
Lemma shape_lookup sv mv dv :
  assoc_last grpc_status_key (shape sv mv dv) = Some sv /\
  assoc_last grpc_message_key (shape sv mv dv) = mv /\
  assoc_last status_details_key (shape sv mv dv) = dv.
Proof. destruct mv, dv; vm_compute; repeat split; reflexivity. Qed.

(* what the server puts into the message and details entries *)
Definition wire_msg (msg : option (list Z)) : option (list Z) :=
  match msg with Some m => encode_grpc_message m | None => None end.
Definition wire_det (sc : bool) (det : option (list Z)) : option (list Z) :=
  match det with Some b => if sc then Some (encode_bin_value b) else None | None => None end.

(* a message with a lone surrogate never reaches the wire: UnicodeEncodeError on the server *)
Lemma status_trailers_shape sc st msg det :
  status_trailers sc st msg det =
  if msg_valid msg then Some (shape (decimal st) (wire_msg msg) (wire_det sc det)) else None.
Proof.
  unfold status_trailers, shape, wire_det. destruct msg as [m|]; cbn [msg_valid wire_msg].
  - rewrite encode_msg_eq. destruct (scalars_ok m); [|reflexivity]. destruct det, sc; reflexivity.
  - destruct det, sc; reflexivity.
Qed.

Lemma assoc_last_in k hs v : assoc_last k hs = Some v -> In (k, v) hs.
Proof.
  induction hs as [|[k' v'] hs IH]; [discriminate|]. cbn [assoc_last].
  destruct (assoc_last k hs); [intros H; right; exact (IH H)|].
  destruct (zlist_eqb k k') eqn:E; [|discriminate].
  intros [= ->]. apply zlist_eqb_eq in E. subst k'. left. reflexivity.
Qed.

(* headers around the status part that say nothing about the status do not matter *)
Lemma assoc_last_app k a b :
  assoc_last k (a ++ b) = match assoc_last k b with Some v => Some v | None => assoc_last k a end.
Proof.
  induction a as [|[k' v] a IH]; cbn [app assoc_last].
  - destruct (assoc_last k b); reflexivity.
  - rewrite IH. destruct (assoc_last k b); reflexivity.
Qed.

Lemma assoc_last_free k hs :
  status_key k = true -> status_free hs = true -> assoc_last k hs = None.
Proof.
  intros Hk Hf. destruct (assoc_last k hs) as [v|] eqn:E; [|reflexivity].
  unfold status_free in Hf. rewrite forallb_forall in Hf.
  apply assoc_last_in, Hf in E. cbn [fst] in E. rewrite Hk in E. discriminate.
Qed.

Lemma assoc_last_around k pre mid post :
  status_key k = true -> status_free pre = true -> status_free post = true ->
  assoc_last k (pre ++ mid ++ post) = assoc_last k mid.
Proof.
  intros Hk Hpre Hpost. rewrite !assoc_last_app.
  rewrite (assoc_last_free k post Hk Hpost), (assoc_last_free k pre Hk Hpre).
  destruct (assoc_last k mid); reflexivity.
Qed.

Lemma status_keys :
  status_key grpc_status_key = true /\ status_key grpc_message_key = true /\
  status_key status_details_key = true.
Proof. vm_compute. repeat split; reflexivity. Qed.

Lemma process_around cc pre mid post :
  status_free pre = true -> status_free post = true ->
  process_grpc_status cc (pre ++ mid ++ post) = process_grpc_status cc mid.
Proof.
  intros Hpre Hpost. destruct status_keys as (K1 & K2 & K3). unfold process_grpc_status.
  rewrite !(assoc_last_around _ pre mid post) by assumption. reflexivity.
Qed.

(* user metadata that encode_metadata accepted never carries one of the three names (C13) *)
Lemma grpc_key_reserved k : status_key k = true -> reserved k = true.
Proof.
  unfold status_key. intros H. repeat (apply orb_true_iff in H as [H|H]);
    apply zlist_eqb_eq in H; subst k; vm_compute; reflexivity.
Qed.

Lemma wire_safe_status_free hs : forallb wire_safe hs = true -> status_free hs = true.
Proof.
  apply forallb_impl. intros [k v] H. cbn [fst]. destruct (status_key k) eqn:E; [|reflexivity].
  apply grpc_key_reserved in E. unfold wire_safe in H. rewrite E, andb_false_r in H. discriminate.
Qed.

Lemma metadata_status_free md hmd :
  md_typed md = true -> encode_metadata md = Ok hmd -> status_free hmd = true.
Proof. intros Ht He. apply wire_safe_status_free, (encoded_is_wire_safe md hmd Ht He). Qed.

(* the core computation of the client on the status part; status OK is not an error: whatever
   message / details were sent with it, the client keeps none of it *)
Lemma process_shape_member cc st mv dv :
  In st status_values ->
  process_grpc_status cc (shape (decimal st) mv dv) =
  if st =? status_ok then CStatus st None None
  else CStatus st (option_map decode_grpc_message mv)
                  (if cc then match dv with Some d => details_bytes d | None => None end else None).
Proof.
  intros Hin. destruct (decimal_member st Hin) as [Hascii Hint].
  destruct (shape_lookup (decimal st) mv dv) as (L1 & L2 & L3).
  unfold process_grpc_status. rewrite L1, L2, L3, Hascii. cbn [negb]. rewrite Hint.
  unfold is_status_member. rewrite (proj2 (mem_z_iff st status_values) Hin). reflexivity.
Qed.

Lemma process_shape cc st mv dv :
  In st status_values -> st <> status_ok ->
  process_grpc_status cc (shape (decimal st) mv dv) =
  CStatus st (match mv with Some m => Some (decode_grpc_message m) | None => None end)
             (if cc then match dv with Some d => details_bytes d | None => None end else None).
Proof.
  intros Hin Hnok. rewrite process_shape_member by exact Hin.
  apply Z.eqb_neq in Hnok. rewrite Hnok. reflexivity.
Qed.

Lemma details_bytes_roundtrip b :
  bytes_ok b = true -> details_bytes (encode_bin_value b) = Some b.
Proof.
  intros Hok. unfold details_bytes. rewrite encode_bin_value_ascii by exact Hok.
  apply b64_roundtrip, Hok.
Qed.

(* THE round trip: every member of Status but OK, every message without lone surrogates
   (None and "" included, and kept apart), every details byte string, with or without a codec
   on either side *)
Lemma status_roundtrip :
  forall sc cc st msg det,
  In st status_values -> st <> status_ok -> msg_valid msg = true -> det_valid det = true ->
  exists hs, status_trailers sc st msg det = Some hs /\
             process_grpc_status cc hs = CStatus st msg (if sc && cc then det else None).
Proof.
  intros sc cc st msg det Hin Hnok Hmsg Hdet.
  rewrite status_trailers_shape, Hmsg. eexists. split; [reflexivity|].
  rewrite process_shape by assumption. f_equal.
  - destruct msg as [m|]; [|reflexivity].
    destruct (message_roundtrip m Hmsg) as (e & He & Hback).
    cbn [wire_msg]. rewrite He, Hback. reflexivity.
  - destruct det as [b|], sc, cc; try reflexivity.
    apply details_bytes_roundtrip, Hdet.
Qed.

Lemma keys_ascii :
  ascii_ok grpc_status_key = true /\ ascii_ok grpc_message_key = true /\
  ascii_ok status_details_key = true.
Proof. vm_compute. repeat split; reflexivity. Qed.

(* the wire form of the whole status part is ASCII, so the receiving h2 does not refuse it *)
Lemma status_trailers_ascii :
  forall sc st msg det hs,
  In st status_values -> det_valid det = true ->
  status_trailers sc st msg det = Some hs -> headers_ascii hs = true.
Proof.
  intros sc st msg det hs Hin Hdet H. rewrite status_trailers_shape in H.
  destruct (msg_valid msg); [injection H as <- | discriminate].
  destruct keys_ascii as (A1 & A2 & A3). destruct (decimal_member st Hin) as [Hascii _].
  assert (Hm : forall e, wire_msg msg = Some e -> ascii_ok e = true).
  { destruct msg as [m|]; [|discriminate]. intros e He.
    apply printable_is_ascii, (message_wire_safe m e He). }
  unfold shape, headers_ascii, wire_det.
  destruct (wire_msg msg) as [e|], det as [b|]; try destruct sc; cbn [app forallb fst snd];
    rewrite ?A1, ?A2, ?A3, ?Hascii, ?(Hm _ eq_refl), ?encode_bin_value_ascii by exact Hdet;
    reflexivity.
Qed.

Lemma ok_status_carries_nothing :
  forall sc cc msg det, msg_valid msg = true ->
  In status_ok status_values /\
  exists hs, status_trailers sc status_ok msg det = Some hs /\
             process_grpc_status cc hs = CStatus status_ok None None /\
             raises_grpc_error (CStatus status_ok None None) = false.
Proof.
  intros sc cc msg det Hmsg.
  assert (Hin : In status_ok status_values) by (vm_compute; auto).
  split; [exact Hin|].
  rewrite status_trailers_shape, Hmsg. eexists. split; [reflexivity|].
  rewrite process_shape_member by exact Hin.
  unfold raises_grpc_error. rewrite Z.eqb_refl. split; reflexivity.
Qed.

(* hence the statement "for EVERY status code the client sees (status, message, details)" is
   false of the code as it is; the witness is replayed on the implementation by the driver *)
Lemma status_roundtrip_all_refuted :
  exists st msg det,
    In st status_values /\ msg_valid msg = true /\ det_valid det = true /\
    exists hs, status_trailers true st msg det = Some hs /\
               process_grpc_status true hs <> CStatus st msg det.
Proof.
  exists 0, (Some [120]), None. split; [vm_compute; auto|]. split; [reflexivity|].
  split; [reflexivity|]. eexists. split; [vm_compute; reflexivity|].
  vm_compute. discriminate.
Qed.

(* every trailers block made of ASCII bytes gets an answer from the client ... *)
Lemma receive_total_partial :
  forall cc raw, headers_ascii raw = true ->
  client_receive cc raw = RStatus (process_grpc_status cc raw).
Proof.
  intros cc raw H. unfold client_receive, h2_decode_headers. unfold headers_ascii in H.
  rewrite H. reflexivity.
Qed.

(* ... but not every block of bytes does: a raw (unescaped) UTF-8 grpc-message makes h2
   raise UnicodeDecodeError, which costs the connection and the status of the call *)
Lemma receive_total_refuted :
  exists raw, forallb (fun kv => bytes_ok (fst kv) && bytes_ok (snd kv)) raw = true /\
              client_receive true raw = RConnError.
Proof.
  exists [(grpc_status_key, [53]); (grpc_message_key, [195; 169])].
  split; vm_compute; reflexivity.
Qed.

(* whenever the client does return a status with a message, that message is a valid str *)
Lemma received_message_valid :
  forall cc raw st m det,
  client_receive cc raw = RStatus (CStatus st (Some m) det) -> scalars_ok m = true.
Proof.
  intros cc raw st m det H. unfold client_receive, h2_decode_headers in H.
  destruct (forallb _ raw) eqn:Ha; [|discriminate].
  injection H as H. unfold process_grpc_status in H.
  destruct (assoc_last grpc_status_key raw) as [v|]; [|discriminate].
  destruct (negb (ascii_ok v)); [discriminate|].
  destruct (py_int v) as [n|]; [|discriminate].
  destruct (negb (is_status_member n)); [discriminate|].
  destruct (n =? status_ok); [discriminate|].
  destruct (assoc_last grpc_message_key raw) as [mv|] eqn:Hm; [|discriminate].
  injection H as _ <- _. apply decode_yields_valid_str.
  rewrite forallb_forall in Ha. apply assoc_last_in, Ha, andb_true_iff in Hm. apply Hm.
Qed.
