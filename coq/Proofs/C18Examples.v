(* Non-vacuity examples for C18: the hypotheses of the theorems are satisfiable by concrete,
   non-trivial listener lists on the real event classes, and the model computes on them what the
   property says.  Everything here is decided by evaluation. *)
From Coq Require Import String ZArith List Bool.
From GV Require Import Lib.Str Gen.Facts Gen.FactsC18 Model.Events.
Import ListNotations.
Open Scope Z_scope.

(* the RecvRequest hook of the server as the source defines it *)
Definition ex_hook : hook :=
  match find_hook (side_hooks Server) (s2z "recv_request") with
  | Some h => h
  | None => {| h_cls := []; h_meth := []; h_event := []; h_pos := []; h_kw := []; h_ctor := [] |}
  end.

Example ex_hook_found : In ex_hook (side_hooks Server) /\ h_event ex_hook = s2z "RecvRequest".
Proof.
  split; [|vm_compute; reflexivity].
  apply (find_some (fun h => zlist_eqb (s2z "recv_request") (h_meth h)) (side_hooks Server)).
  vm_compute. reflexivity.
Qed.

(* dispatch.recv_request(md, func, method_name=.., deadline=.., content_type=.., user_agent=.., peer=..)
   as request_handler calls it: metadata = [1;2], method_func = [7] *)
Definition ex_pos : list value := [[1; 2]; [7]].
Definition ex_kw : list (name * value) :=
  [ (s2z "method_name", [100]); (s2z "deadline", []); (s2z "content_type", [101]);
    (s2z "user_agent", [102]); (s2z "peer", [103]) ].

Example ex_good_call : good_call ex_hook ex_pos ex_kw = true.
Proof. vm_compute; reflexivity. Qed.

(* five listeners: #10 appends to the metadata; #11 replaces the handler, tries (guarded) to assign
   the read-only method_name and an attribute that does not exist; #12 overwrites the metadata,
   appends to it and interrupts; #13 and #14 would change both fields again *)
Definition ex_listeners : list listener :=
  [ {| l_id := 10; l_acts := [AApp (s2z "metadata") [3] false] |};
    {| l_id := 11; l_acts := [ASet (s2z "method_func") [8] false;
                              ASet (s2z "method_name") [9] true;
                              ASet (s2z "nope") [9] true] |};
    {| l_id := 12; l_acts := [ASet (s2z "metadata") [4] false; AApp (s2z "metadata") [5] true;
                              AInterrupt] |};
    {| l_id := 13; l_acts := [ASet (s2z "metadata") [6] false] |};
    {| l_id := 14; l_acts := [ASet (s2z "method_func") [66] false; AInterrupt] |} ].

Definition ex_regs : list (name * listener) :=
  map (fun l => (s2z "RecvRequest", l)) ex_listeners
  ++ [ (s2z "SendRequest", {| l_id := 99; l_acts := [] |}) ].     (* not a server event: KeyError *)

Definition ex_obj : dobj := register (obj_for Server) ex_regs.

(* listeners 10, 11, 12 run, in that order, once; 12 interrupts; the handler and the metadata that
   the server uses next are what they left; the two refused assignments are reported *)
Example ex_call :
  call_hook ex_obj (s2z "recv_request") ex_pos ex_kw
  = HRes {| d_log := [10; 11; 12]; d_errs := [(11, 1); (11, 2)]; d_out := inl [[4; 5]; [8]] |}.
Proof. vm_compute; reflexivity. Qed.

(* the foreign registration was refused and changed nothing; other hooks of the same object still
   take the identity shadow; a second object sees none of the listeners *)
Example ex_foreign_refused :
  add_listener (obj_for Server) (s2z "SendRequest") {| l_id := 99; l_acts := [] |} = None.
Proof. vm_compute; reflexivity. Qed.

Example ex_other_hook_fast :
  mem_str (s2z "send_message") (do_fast ex_obj) = true
  /\ mem_str (s2z "recv_request") (do_fast ex_obj) = false
  /\ call_hook ex_obj (s2z "send_message") [[42]] [] = HRes {| d_log := []; d_errs := []; d_out := inl [[42]] |}.
Proof. vm_compute. repeat split; reflexivity. Qed.

Example ex_second_object_untouched :
  call_hook (obj_for Server) (s2z "recv_request") ex_pos ex_kw
  = HRes {| d_log := []; d_errs := []; d_out := inl ex_pos |}.
Proof. vm_compute; reflexivity. Qed.

(* the event the slow path builds satisfies the hypotheses of the dispatch theorems *)
Definition ex_event : event :=
  match bind_args ex_hook ex_pos ex_kw with
  | Some env => match mk_event ex_hook env with
                | Some ev => ev
                | None => {| ev_cls := mk_eclass ([], [], []); ev_vals := []; ev_int := true |}
                end
  | None => {| ev_cls := mk_eclass ([], [], []); ev_vals := []; ev_int := true |}
  end.

Example ex_event_hyps :
  wf_event ex_event = true /\ ev_int ex_event = false /\ class_ok (ev_cls ex_event) = true
  /\ ec_name (ev_cls ex_event) = s2z "RecvRequest".
Proof. vm_compute. repeat split; reflexivity. Qed.

Example ex_stops :
  map (l_stops (ev_cls ex_event)) ex_listeners = [false; false; true; false; true]
  /\ map l_id (upto (l_stops (ev_cls ex_event)) ex_listeners) = [10; 11; 12]
  /\ first_raise (ev_cls ex_event) ex_listeners = None.
Proof. vm_compute. repeat split; reflexivity. Qed.

(* an unguarded assignment of a read-only field escapes: the listener after it does not run, the
   hook raises AttributeError instead of returning *)
Definition ex_raising : list listener :=
  [ {| l_id := 1; l_acts := [AApp (s2z "metadata") [3] false] |};
    {| l_id := 2; l_acts := [ASet (s2z "peer") [1] false; ASet (s2z "metadata") [9] false] |};
    {| l_id := 3; l_acts := [] |} ].

Example ex_raise :
  dispatch ex_raising ex_event = {| d_log := [1; 2]; d_errs := []; d_out := inr XAttr |}
  /\ l_raises (ev_cls ex_event) (nth 1 ex_raising {| l_id := 0; l_acts := [] |}) = Some XAttr.
Proof. vm_compute. split; reflexivity. Qed.

(* plain listeners (interrupt / payload assignments only) and inert ones *)
Definition ex_plain : list listener :=
  [ {| l_id := 1; l_acts := [ASet (s2z "metadata") [1] false] |};
    {| l_id := 2; l_acts := [ASet (s2z "metadata") [2] false; AInterrupt;
                             ASet (s2z "method_func") [5] false] |};
    {| l_id := 3; l_acts := [ASet (s2z "metadata") [3] false] |} ].

Example ex_plain_hyp :
  forallb (plain (ev_cls ex_event)) ex_plain = true
  /\ no_app (acts_of (upto calls_interrupt ex_plain)) = true
  /\ d_out (dispatch ex_plain ex_event) = inl [[2]; [5]]
  /\ last_set (s2z "metadata") (acts_of (upto calls_interrupt ex_plain)) = Some [2].
Proof. vm_compute. repeat split; reflexivity. Qed.

Definition ex_inert : list listener :=
  [ {| l_id := 1; l_acts := [] |};
    {| l_id := 2; l_acts := [ASet (s2z "peer") [1] true; AApp (s2z "deadline") [2] true;
                             ASet (s2z "whatever") [3] true] |} ].

Example ex_inert_hyp :
  forallb (inert (ev_cls ex_event)) ex_inert = true
  /\ dispatch ex_inert ex_event
     = {| d_log := [1; 2]; d_errs := [(2, 0); (2, 1); (2, 2)]; d_out := inl ex_pos |}.
Proof. vm_compute. split; reflexivity. Qed.

(* __interrupted__ is not read-only: assigning it through __setattr__ sets / clears the flag *)
Example ex_flag :
  d_log (dispatch [ {| l_id := 1; l_acts := [AInterrupt; ASet (s2z "__interrupted__") [] false] |};
                    {| l_id := 2; l_acts := [ASet (s2z "__interrupted__") [1] false] |};
                    {| l_id := 3; l_acts := [] |} ] ex_event) = [1; 2].
Proof. vm_compute; reflexivity. Qed.

(* a non-payload field and a payload field of a client event *)
Example ex_readonly_field :
  option_map (fun c => (field_kind c (s2z "deadline"), field_kind c (s2z "metadata"),
                        field_kind c (s2z "__interrupted__"), field_kind c (s2z "x")))
             (find_class (s2z "SendRequest"))
  = Some (FReadOnly, FSlot, FFlag, FNone).
Proof. vm_compute; reflexivity. Qed.

(* the use-site table is not empty and names every hook *)
Example ex_sites : Nat.leb 10 (length hook_sites) = true /\ sites_all_ok = true.
Proof. vm_compute. split; reflexivity. Qed.
