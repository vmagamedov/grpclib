(* Proofs for Props/C17.v: the keepalive automaton of Model/Keepalive.v.
   Everything is proved for ALL configurations accepted by the validators (cfg_ok), all start
   instants and ALL event lists.  A run is cut into micro-steps that log one item each; `reach`
   collects the (state, log) pairs so reached, the invariants are proved by induction on it, and
   facts about the history of a run are read off single states (reach_prefix, reach_item). *)
From Coq Require Import String ZArith List Bool Lia ZifyBool.
From GV Require Import Lib.Str Gen.FactsC17 Model.Keepalive.
Import ListNotations.
Open Scope Z_scope.

Lemma app_snoc_inv {A} (l l1 l2 : list A) y :
  l ++ [y] = l1 ++ l2 -> l2 = [] \/ exists m, l2 = m ++ [y] /\ l = l1 ++ m.
Proof.
  destruct l2 as [|z m _] using rev_ind; intros E; [left; reflexivity|right].
  rewrite app_assoc in E. apply app_inj_tail in E. destruct E as [-> ->]. eauto.
Qed.

Lemma snoc_split {A} (l l1 l2 : list A) x y :
  l ++ [y] = l1 ++ x :: l2 ->
  (l = l1 /\ y = x /\ l2 = []) \/ exists m, l2 = m ++ [y] /\ l = l1 ++ x :: m.
Proof.
  intros E. destruct (app_snoc_inv _ _ _ _ E) as [|[[|x' m] [E1 ->]]]; [discriminate| |];
    inversion E1; subst; [left; rewrite app_nil_r; auto|right; eauto].
Qed.

Definition times_le (b : Z) (l : log) : Prop := Forall (fun x => fst x <= b) l.
Definition times_ge (b : Z) (l : log) : Prop := Forall (fun x => b <= fst x) l.

Fixpoint mono (l : log) : Prop :=
  match l with
  | [] => True
  | x :: r => times_ge (fst x) r /\ mono r
  end.

Lemma mono_app l o :
  mono (l ++ o) <-> mono l /\ mono o /\ (forall x y, In x l -> In y o -> fst x <= fst y).
Proof.
  induction l as [|a l IH]; cbn.
  - split; [intros H; repeat split; auto; intros ? ? []|intros [_ [H _]]; exact H].
  - unfold times_ge in *. rewrite Forall_app, IH. split.
    + intros [[H1 H2] [H3 [H4 H5]]]. repeat split; auto.
      intros x y [->|Hx] Hy; [rewrite Forall_forall in H2; auto|eauto].
    + intros [[H1 H2] [H3 H4]]. repeat split; auto.
      rewrite Forall_forall. intros y Hy. apply H4; auto.
Qed.

Lemma mono_split l1 x l2 y : mono (l1 ++ x :: l2) -> In y l2 -> fst x <= fst y.
Proof.
  intros H Hy. apply mono_app in H. destruct H as [_ [[H _] _]].
  unfold times_ge in H. rewrite Forall_forall in H. auto.
Qed.

Lemma log_snoc n l t i :
  times_le n l -> mono l -> n <= t -> times_le t (l ++ [(t, i)]) /\ mono (l ++ [(t, i)]).
Proof.
  unfold times_le. rewrite !Forall_forall. intros Hle Hmo Hnt. split.
  - intros x Hx. apply in_app_or in Hx.
    destruct Hx as [Hx|[<-|[]]]; [specialize (Hle x Hx)|cbn]; lia.
  - apply mono_app. repeat split; [exact Hmo|constructor|].
    intros x y Hx [<-|[]]. specialize (Hle x Hx). cbn. lia.
Qed.

Lemma item_eqb_eq a b : item_eqb a b = true <-> a = b.
Proof. destruct a, b; cbn; split; intros; congruence. Qed.

Lemma has_app i l o : has i (l ++ o) = has i l || has i o.
Proof. apply existsb_app. Qed.

Lemma has_in i l : has i l = true <-> exists t, In (t, i) l.
Proof.
  unfold has. rewrite existsb_exists. split.
  - intros [[t j] [Hin He]]. apply item_eqb_eq in He. cbn in He. subst. eauto.
  - intros [t Hin]. exists (t, i). split; [exact Hin|]. apply item_eqb_eq. reflexivity.
Qed.

Lemma has_not_in i l t : has i l = false -> ~ In (t, i) l.
Proof. intros H Hin. apply not_true_iff_false in H. apply H, has_in. eauto. Qed.

Lemma tailcount_app l o acc : tailcount acc (l ++ o) = tailcount (tailcount acc l) o.
Proof.
  revert acc. induction l as [|[t i] l IH]; intros acc; cbn; auto.
  destruct i; apply IH.
Qed.

Lemma lastping_app l o acc : lastping acc (l ++ o) = lastping (lastping acc l) o.
Proof.
  revert acc. induction l as [|[t i] l IH]; intros acc; cbn; auto.
  destruct i; apply IH.
Qed.

Lemma ping_times_app l o : ping_times (l ++ o) = ping_times l ++ ping_times o.
Proof. unfold ping_times. rewrite filter_app, map_app. reflexivity. Qed.

Lemma in_ping_times p l : In p (ping_times l) <-> In (p, IPing) l.
Proof.
  unfold ping_times. rewrite in_map_iff. split.
  - intros [[t i] [E H]]. apply filter_In in H. destruct H as [H1 H2]. cbn in *.
    apply item_eqb_eq in H2. subst. exact H1.
  - intros H. exists (p, IPing). split; auto. apply filter_In. split; auto.
Qed.

Lemma run_from_app c a e1 e2 : run_from c a (e1 ++ e2) = run_from c (run_from c a e1) e2.
Proof. apply fold_left_app. Qed.

Lemma run_app c t0 e1 e2 : run c t0 (e1 ++ e2) = run_from c (run c t0 e1) e2.
Proof. apply run_from_app. Qed.

Lemma run_ind c t0 (P : st -> log -> Prop) :
  P (init c t0) [] ->
  (forall s l e, P s l -> P (fst (step c s e)) (l ++ snd (step c s e))) ->
  forall evs, P (fst (run c t0 evs)) (snd (run c t0 evs)).
Proof.
  intros H0 Hs evs. induction evs as [|e evs IH] using rev_ind; [exact H0|].
  rewrite run_app. cbn. unfold stepl. specialize (Hs _ _ e IH).
  destruct (step c (fst (run c t0 evs)) e). exact Hs.
Qed.

Lemma run_log_prefix c a evs : exists o, snd (run_from c a evs) = snd a ++ o.
Proof.
  revert a. induction evs as [|e evs IH]; intros a.
  - exists []. cbn. rewrite app_nil_r. reflexivity.
  - cbn. destruct (IH (stepl c a e)) as [o Ho]. unfold run_from in Ho. rewrite Ho.
    unfold stepl. destruct (step c (fst a) e) as [s1 o1]. cbn. exists (o1 ++ o).
    rewrite app_assoc. reflexivity.
Qed.

Lemma earliest_spec a b :
  match earliest a b with
  | Some d => (a = Some d \/ b = Some d) /\
              (forall x, a = Some x -> d <= x) /\ (forall x, b = Some x -> d <= x)
  | None => a = None /\ b = None
  end.
Proof.
  destruct a as [x|], b as [y|]; cbn; repeat split; auto;
    try (intros z [= <-]; lia); try discriminate.
  destruct (Z.min_spec x y) as [[_ ->]|[_ ->]]; auto.
Qed.

Lemma opt_is_eq o d : opt_is o d = true <-> o = Some d.
Proof. destruct o as [x|]; cbn; [rewrite Z.eqb_eq|]; split; congruence. Qed.

Section Run.
Variable c : cfg.
Hypothesis Hok : cfg_ok c.

(* what the application does to the connection: none of it touches a timer, the clock or
   last_ping_sent; the counter follows the log (tailcount: data/headers reset it) *)
Definition app_item (i : item) : bool :=
  match i with IData | IHeaders | IOpen | IShut | IRecv => true | _ => false end.

(* Micro-steps: each logs ONE item, stamped with the clock it leaves behind.  Every event is one
   of these, or two (ping timer and close timer due at the same instant, ping callback first).
   Where `step` keeps `closed s`, the timer steps write the `false` they assume; m_app leaves
   last_data and opens free, which no invariant reads. *)
Inductive mstep (s : st) : st -> item -> Prop :=
| m_idle t :
    (closed s = false ->
     (forall d, ping_timer s = Some d -> t <= d) /\ (forall d, close_timer s = Some d -> t <= d)) ->
    mstep s (set_now s (Z.max (now s) t)) ITick
| m_ping d :
    closed s = false -> ping_timer s = Some d ->
    (forall d', close_timer s = Some d' -> d <= d') ->
    need_ping c (set_now s d) = true ->
    mstep s (mkSt d (Some (d + k_time c))
                  (match close_timer s with None => Some (d + k_timeout c) | Some x => Some x end)
                  (pcount s + 1) (Some d) (last_data s) (opens s) false) IPing
| m_skip d :
    closed s = false -> ping_timer s = Some d ->
    (forall d', close_timer s = Some d' -> d <= d') ->
    need_ping c (set_now s d) = false ->
    mstep s (mkSt d (Some (d + k_time c)) (close_timer s) (pcount s) (last_ping s) (last_data s)
                  (opens s) false) ISkip
| m_close d :
    closed s = false -> close_timer s = Some d ->
    (forall d', ping_timer s = Some d' -> d <= d') ->
    mstep s (mkSt d None None (pcount s) (last_ping s) (last_data s) (opens s) true) IClose
| m_ack :
    mstep s (mkSt (now s) (ping_timer s) None (pcount s) (last_ping s) (last_data s) (opens s)
                  (closed s)) IAck
| m_lost :
    mstep s (mkSt (now s) None None (pcount s) (last_ping s) (last_data s) (opens s) true) ILost
| m_app i pc ld op :
    app_item i = true -> pc = tailcount (pcount s) [(now s, i)] ->
    mstep s (mkSt (now s) (ping_timer s) (close_timer s) pc (last_ping s) ld op (closed s)) i.

(* base invariant: the log is time-ordered and bounded by the clock; armed timers lie ahead *)
Record base (s : st) (l : log) : Prop := {
  b_le : times_le (now s) l;
  b_mono : mono l;
  b_ping : closed s = false -> forall d, ping_timer s = Some d -> now s <= d <= now s + k_time c;
  b_close : closed s = false -> forall d, close_timer s = Some d ->
            now s <= d <= now s + k_timeout c
}.

Lemma base_in s l t i : base s l -> In (t, i) l -> t <= now s.
Proof.
  intros [H _ _ _] Hin. unfold times_le in H. rewrite Forall_forall in H. exact (H _ Hin).
Qed.

Lemma base_mstep s l s' i : base s l -> mstep s s' i -> base s' (l ++ [(now s', i)]).
Proof.
  destruct Hok as [Ht [Hto _]]. intros [Hle Hmo Hp Hc] M.
  assert (Hnow : now s <= now s').
  { destruct M as [|d Hcl Hpt|d Hcl Hpt|d Hcl Hct| | |]; cbn; try lia;
      [apply (Hp Hcl d Hpt)|apply (Hp Hcl d Hpt)|apply (Hc Hcl d Hct)]. }
  destruct (log_snoc _ _ _ i Hle Hmo Hnow) as [A B].
  split; [exact A|exact B|intros Hcl x Hx..];
    destruct M as [t Hfree|d Hcl0 Hpt Hq _|d Hcl0 Hpt Hq _|d Hcl0 Hct Hq| | |];
    cbn in *; try discriminate; auto.
  - destruct (Hfree Hcl) as [F _]. specialize (F x Hx). specialize (Hp Hcl x Hx). lia.
  - injection Hx as <-. lia.
  - injection Hx as <-. lia.
  - destruct (Hfree Hcl) as [_ F]. specialize (F x Hx). specialize (Hc Hcl x Hx). lia.
  - destruct (close_timer s) as [y|]; injection Hx as <-; [|lia].
    specialize (Hc Hcl0 y eq_refl). specialize (Hq y eq_refl). lia.
  - specialize (Hc Hcl0 x Hx). specialize (Hq x Hx). lia.
Qed.

Inductive reach (t0 : Z) : st -> log -> Prop :=
| reach_init : reach t0 (init c t0) []
| reach_step s l s' i : reach t0 s l -> mstep s s' i -> reach t0 s' (l ++ [(now s', i)]).

Lemma reach_base t0 s l : reach t0 s l -> base s l.
Proof.
  induction 1 as [|s l s' i _ IH M]; [|exact (base_mstep _ _ _ _ IH M)].
  destruct Hok as [Ht _]. split; cbn; [constructor|exact I| |discriminate].
  intros _ d. destruct (k_enabled c); intros [= <-]. lia.
Qed.

(* the model's two timer callbacks, run at the due time d of their timer, are micro-steps *)
Lemma reach_fire_ping t0 s l d :
  reach t0 s l -> closed s = false -> ping_timer s = Some d ->
  (forall x, close_timer s = Some x -> d <= x) ->
  reach t0 (fst (fire_ping c (set_now s d))) (l ++ snd (fire_ping c (set_now s d))).
Proof.
  intros R Hcl Hpt Hq. unfold fire_ping.
  destruct (need_ping c (set_now s d)) eqn:En; cbn; rewrite Hcl.
  - exact (reach_step _ _ _ _ _ R (m_ping _ d Hcl Hpt Hq En)).
  - exact (reach_step _ _ _ _ _ R (m_skip _ d Hcl Hpt Hq En)).
Qed.

Lemma reach_fire_close t0 s l d :
  reach t0 s l -> closed s = false -> close_timer s = Some d ->
  (forall x, ping_timer s = Some x -> d <= x) ->
  reach t0 (fst (fire_close (set_now s d))) (l ++ snd (fire_close (set_now s d))).
Proof. intros R Hcl Hct Hq. exact (reach_step _ _ _ _ _ R (m_close _ d Hcl Hct Hq)). Qed.

(* a step of the model is one micro-step, or two at the same instant *)
Lemma reach_event t0 s l e :
  reach t0 s l -> reach t0 (fst (step c s e)) (l ++ snd (step c s e)).
Proof.
  intros R. pose proof (reach_base _ _ _ R) as [_ _ Hp Hc].
  pose proof (fun t H => reach_step _ _ _ _ _ R (m_idle s t H)) as Hidle.
  (* every event but Tick is one micro-step (destruct s: Acked returns s itself) *)
  destruct e; cbn [step fst snd];
    try (destruct s; refine (reach_step _ _ _ _ _ R _); constructor; reflexivity).
  unfold tick. destruct (closed s) eqn:Hcl; [apply Hidle; discriminate|].
  specialize (Hp eq_refl). specialize (Hc eq_refl).
  pose proof (earliest_spec (ping_timer s) (close_timer s)) as He.
  destruct (earliest (ping_timer s) (close_timer s)) as [d|].
  2:{ destruct He as [E1 E2]. apply Hidle. rewrite E1, E2. split; discriminate. }
  destruct He as [Hd [Hpd Hcd]].
  destruct (is_due incl d t) eqn:Edue.
  2:{ apply Hidle. intros _. unfold is_due in Edue.
      split; intros x Hx; [specialize (Hpd x Hx)|specialize (Hcd x Hx)]; destruct incl; lia. }
  replace (Z.max (now s) d) with d
    by (destruct Hd as [Hd|Hd]; [specialize (Hp d Hd)|specialize (Hc d Hd)]; lia).
  destruct (opt_is (ping_timer s) d) eqn:Epd, (opt_is (close_timer s) d) eqn:Ecd; cbn [andb].
  - apply opt_is_eq in Epd, Ecd. destruct close_first; [apply reach_fire_close; assumption|].
    (* _ping runs, finds the close timer armed and leaves it; then close runs *)
    pose proof (reach_fire_ping _ _ _ _ R Hcl Epd Hcd) as R1.
    destruct (fire_ping c (set_now s d)) as [s1 o1] eqn:E. cbn [fst snd fire_close] in *.
    assert (F : now s1 = d /\ closed s1 = false /\ close_timer s1 = Some d /\
                ping_timer s1 = Some (d + k_time c)).
    { unfold fire_ping in E.
      destruct (need_ping c (set_now s d)); injection E as <- _; cbn; rewrite Ecd; auto. }
    destruct F as [F1 [F2 [F3 F4]]]. rewrite app_assoc.
    apply (reach_fire_close _ _ _ (now s1) R1 F2); rewrite F1; [exact F3|].
    intros x. rewrite F4. destruct Hok. intros [= <-]. lia.
  - apply opt_is_eq in Epd. apply reach_fire_ping; assumption.
  - apply opt_is_eq in Ecd. apply reach_fire_close; assumption.
  - exfalso. destruct Hd as [Hd|Hd]; apply opt_is_eq in Hd; congruence.
Qed.

Lemma run_reach t0 evs : reach t0 (fst (run c t0 evs)) (snd (run c t0 evs)).
Proof. apply run_ind; [constructor|intros s l e; apply reach_event]. Qed.

Lemma run_base t0 evs : base (fst (run c t0 evs)) (snd (run c t0 evs)).
Proof. exact (reach_base _ _ _ (run_reach t0 evs)). Qed.

(* every prefix of the log was the whole log at an earlier moment, and every item was logged by
   a micro-step that left the clock at its stamp: facts about the history of a run follow from
   facts about single states *)
Lemma reach_prefix t0 s l :
  reach t0 s l -> forall l1 l2, l = l1 ++ l2 -> exists s1, reach t0 s1 l1.
Proof.
  induction 1 as [|s l s' i R IH M]; intros l1 l2 E.
  - destruct l1; [|discriminate]. exists (init c t0). constructor.
  - destruct (app_snoc_inv _ _ _ _ E) as [->|[m [-> E1]]].
    + rewrite app_nil_r in E. subst l1. exists s'. exact (reach_step _ _ _ _ _ R M).
    + exact (IH _ _ E1).
Qed.

Lemma reach_item t0 s l l1 t i l2 :
  reach t0 s l -> l = l1 ++ (t, i) :: l2 ->
  exists s0 s1, reach t0 s0 l1 /\ mstep s0 s1 i /\ now s1 = t.
Proof.
  intros R E. destruct (reach_prefix _ _ _ R (l1 ++ [(t, i)]) l2) as [s1 R1].
  { rewrite <- app_assoc. exact E. }
  inversion R1 as [E0|s0 l0 s1' i' R0 M E1 E2]; [destruct l1; discriminate|].
  apply app_inj_tail in E2. destruct E2 as [-> E2]. injection E2 as <- <-. subst. eauto.
Qed.

Definition unacked (l : log) (p : Z) : Prop :=
  exists l1 l2, l = l1 ++ (p, IPing) :: l2 /\ has IAck l2 = false.

(* an armed close timer belongs to an unacknowledged PING sent `timeout` before its due time *)
Lemma close_timer_origin t0 s l :
  reach t0 s l ->
  (closed s = false -> forall d, close_timer s = Some d -> unacked l (d - k_timeout c)) /\
  (closed s = true -> exists t, In (t, IClose) l \/ In (t, ILost) l).
Proof.
  induction 1 as [|s l s' i R [IH1 IH2] M]; [split; cbn; discriminate|].
  assert (K1 : has IAck [(now s', i)] = false -> closed s = false -> forall d,
            close_timer s = Some d -> unacked (l ++ [(now s', i)]) (d - k_timeout c)).
  { intros Hi Hcl d Hd. destruct (IH1 Hcl d Hd) as [l1 [l2 [-> H]]].
    exists l1, (l2 ++ [(now s', i)]). rewrite <- app_assoc, has_app, H. auto. }
  assert (K2 : closed s = true ->
            exists t, In (t, IClose) (l ++ [(now s', i)]) \/ In (t, ILost) (l ++ [(now s', i)])).
  { intros Hcl. destruct (IH2 Hcl) as [t [H|H]]; exists t; [left|right]; apply in_or_app; auto. }
  destruct M as [t _|d Hcl Hpt _ _|d Hcl _ _ _|d _ _ _| | |i pc ld op Hi _]; cbn in *; split;
    try discriminate; auto.
  - intros _ x Hx. destruct (close_timer s) as [y|] eqn:Hy; injection Hx as <-; [auto|].
    exists l, []. replace (d + k_timeout c - k_timeout c) with d by lia. auto.
  - intros _. exists d. left. apply in_or_app. right. left. reflexivity.
  - intros _. exists (now s). right. apply in_or_app. right. left. reflexivity.
  - apply K1. destruct i; discriminate || reflexivity.
Qed.

(* every PING in the log is followed by an acknowledgement that arrives strictly less than
   `timeout` after it was sent -- or its deadline has not been reached when the run ends *)
Definition acked_in_time (timeout : Z) (l : log) (end_time : Z) : Prop :=
  forall l1 p l2, l = l1 ++ (p, IPing) :: l2 ->
    (exists a, In (a, IAck) l2 /\ a < p + timeout) \/ end_time < p + timeout.

Lemma live_peer_never_dropped t0 evs :
  acked_in_time (k_timeout c) (snd (run c t0 evs)) (now (fst (run c t0 evs))) ->
  (forall t, ~ In (t, IClose) (snd (run c t0 evs))) /\
  (has ILost (snd (run c t0 evs)) = false -> closed (fst (run c t0 evs)) = false).
Proof.
  intros Hack. pose proof (run_reach t0 evs) as R. pose proof (reach_base _ _ _ R) as Hb.
  set (s := fst (run c t0 evs)) in *. set (l := snd (run c t0 evs)) in *.
  assert (Hno : forall t, ~ In (t, IClose) l).
  { intros t Hin. pose proof (base_in _ _ _ _ Hb Hin) as Hle.
    (* the close timer fired at t: it then belonged to an unacknowledged PING of t - timeout *)
    apply in_split in Hin. destruct Hin as [l0 [rest E]].
    destruct (reach_item _ _ _ _ _ _ _ R E) as [s0 [s1 [R0 [M <-]]]].
    inversion M as [| | |d Hcl Hct _ E1 E2| | |? ? ? ? Hi]; [subst s1; cbn in *|discriminate Hi].
    destruct (proj1 (close_timer_origin _ _ _ R0) Hcl d Hct) as [l1 [l2 [-> Hna]]].
    rewrite <- app_assoc in E. cbn in E.
    destruct (Hack _ _ _ E) as [[a [Ha Hlt]]|Hend]; [|lia].
    apply in_app_or in Ha. destruct Ha as [Ha|[Ha|Ha]].
    - exact (has_not_in _ _ _ Hna Ha).
    - discriminate Ha.
    - pose proof (b_mono _ _ Hb) as Hmo. rewrite E, app_comm_cons, app_assoc in Hmo.
      pose proof (mono_split _ _ _ _ Hmo Ha) as H. cbn in H. lia. }
  split; [exact Hno|]. intros Hnl. destruct (closed s) eqn:Ecl; [exfalso|reflexivity].
  destruct (proj2 (close_timer_origin _ _ _ R) Ecl) as [t [H|H]].
  - exact (Hno t H).
  - exact (has_not_in _ _ _ Hnl H).
Qed.

(* what makes (2'') true: only an acknowledgement or the end of the connection disarms the close
   timer.  After a PING sent at p that nothing of the kind follows, the timer armed for it or for
   an older PING is still armed, due by p + timeout, unless it has fired *)
Lemma unacked_ping_watched t0 s l :
  reach t0 s l ->
  forall l1 p l2, l = l1 ++ (p, IPing) :: l2 -> has IAck l2 = false -> has ILost l2 = false ->
    (exists d, p <= d <= p + k_timeout c /\ In (d, IClose) l2) \/
    (closed s = false /\ exists d, close_timer s = Some d /\ d <= p + k_timeout c).
Proof.
  induction 1 as [|s l s' i R IH M]; intros l1 p l2 E Hna Hnl; [destruct l1; discriminate|].
  pose proof (reach_base _ _ _ R) as Hb. destruct Hok as [_ [Hto _]].
  apply snoc_split in E. destruct E as [[<- [E ->]]|[m [-> E]]].
  - (* the ping is logged by this very step *)
    right. inversion M as [|d Hcl Hpt _ _ E1 E2| | | | |? ? ? ? Hi]; try congruence.
    2:{ injection E as _ ->. discriminate Hi. }
    cbn. split; [reflexivity|]. rewrite <- E1 in E. injection E as <-.
    destruct (close_timer s) as [x|] eqn:Ect; eexists; (split; [reflexivity|]); [|lia].
    pose proof (b_close _ _ Hb Hcl x Ect). pose proof (b_ping _ _ Hb Hcl d Hpt). lia.
  - (* the ping is older *)
    rewrite has_app in Hna, Hnl. apply orb_false_elim in Hna, Hnl.
    destruct Hna as [Hna Hi1], Hnl as [Hnl Hi2].
    destruct (IH _ _ _ E Hna Hnl) as [[d [Hd Hin]]|[Hcl [d [Hd Hle]]]].
    { left. exists d. split; [exact Hd|]. apply in_or_app. auto. }
    destruct M as [t _|d' _ _ _ _|d' _ _ _ _|d' _ Hct _| | |i pc ld op _ _]; cbn in *;
      try discriminate; try (right; split; [assumption|]; exists d; rewrite ?Hd; auto; fail).
    left. exists d'. replace d' with d in * by congruence. split; [|apply in_or_app; cbn; auto].
    assert (Hp : p <= now s) by (apply (base_in _ _ _ IPing Hb); subst l; apply in_elt).
    pose proof (b_close _ _ Hb Hcl d Hd). lia.
Qed.

Lemma unanswered_ping_closes t0 evs l1 p l2 :
  snd (run c t0 evs) = l1 ++ (p, IPing) :: l2 ->
  has IAck l2 = false -> has ILost l2 = false ->
  p + k_timeout c < now (fst (run c t0 evs)) ->
  exists d, p <= d <= p + k_timeout c /\ In (d, IClose) l2.
Proof.
  intros E Hna Hnl Hlate.
  destruct (unacked_ping_watched _ _ _ (run_reach t0 evs) _ _ _ E Hna Hnl) as [H|[Hcl [d [Hd Hle]]]]; [exact H|].
  pose proof (b_close _ _ (run_base t0 evs) Hcl d Hd). lia.
Qed.

Section Detection.
Variable sigma : Z.

(* no acknowledgement at or after sigma, no external close, and no suppressed ping (ISkip) at an
   instant of [sigma, sigma + time] *)
Definition quiet (l : log) : Prop :=
  (forall a, In (a, IAck) l -> a < sigma) /\
  (has ILost l = false) /\
  (forall q, In (q, ISkip) l -> q < sigma \/ sigma + k_time c < q).

Lemma quiet_prefix l o : quiet (l ++ o) -> quiet l.
Proof.
  intros [H1 [H2 H3]]. rewrite has_app in H2. apply orb_false_elim in H2. destruct H2 as [H2 _].
  repeat split; auto; intros; [apply H1|apply H3]; apply in_or_app; auto.
Qed.

Definition bound : Z := sigma + k_time c + k_timeout c.

(* until the connection is closed the ping timer is armed; it is due by sigma + time, or it has
   fired at or after sigma and the close timer is due by the bound *)
Lemma detection_pending t0 s l :
  k_enabled c = true -> t0 <= sigma -> reach t0 s l -> quiet l ->
  (closed s = true /\ exists d, d <= bound /\ In (d, IClose) l) \/
  (closed s = false /\ exists dp, ping_timer s = Some dp /\
     (dp <= sigma + k_time c \/
      (sigma <= now s /\ exists dc, close_timer s = Some dc /\ dc <= bound))).
Proof.
  intros Hen Ht0. unfold bound. destruct Hok as [Ht [Hto _]].
  induction 1 as [|s l s' i R IH M]; intros Q.
  { right. cbn. rewrite Hen. split; [reflexivity|]. exists (t0 + k_time c).
    split; [reflexivity|lia]. }
  pose proof (reach_base _ _ _ R) as Hb.
  destruct (IH (quiet_prefix _ _ Q)) as [[Hcl [d [Hd Hin]]]|[Hcl [dp [Hdp Hcase]]]].
  { (* already closed: nothing changes that *)
    left. split; [destruct M; cbn; congruence|]. exists d. split; [exact Hd|].
    apply in_or_app. auto. }
  destruct Q as [Qa [Ql Qs]]. pose proof (b_ping _ _ Hb Hcl dp Hdp) as Bp.
  destruct M as [t _|d Hcl' Hpt _ _|d Hcl' Hpt _ _|d Hcl' Hct Hq| | |i pc ld op _ _]; cbn in *.
  - right. split; [exact Hcl|]. exists dp. split; [exact Hdp|].
    destruct Hcase as [H|[H1 H2]]; [left; exact H|right; split; [lia|exact H2]].
  - (* ping at d = dp *)
    replace d with dp in * by congruence.
    right. split; [reflexivity|]. exists (dp + k_time c). split; [reflexivity|].
    destruct Hcase as [H|[H1 [dc [-> H3]]]]; [|right; split; [lia|eauto]].
    destruct (Z_lt_le_dec dp sigma) as [Hlt|Hge]; [left; lia|right; split; [exact Hge|]].
    destruct (close_timer s) as [x|] eqn:Ect; eexists; (split; [reflexivity|]); [|lia].
    pose proof (b_close _ _ Hb Hcl x Ect). lia.
  - (* skip at d = dp: not in [sigma, sigma + time] *)
    replace d with dp in * by congruence.
    right. split; [reflexivity|]. exists (dp + k_time c). split; [reflexivity|].
    assert (Hsk : dp < sigma \/ sigma + k_time c < dp) by (apply Qs, in_elt).
    destruct Hcase as [H|[H1 H2]]; [left; lia|right; split; [lia|exact H2]].
  - (* close at d *)
    left. split; [reflexivity|]. exists d. split; [|apply in_elt].
    destruct Hcase as [H|[_ [dc [H2 H3]]]]; [specialize (Hq dp Hdp); lia|congruence].
  - (* ack: only possible before sigma *)
    assert (Ha : now s < sigma) by (apply Qa, in_elt).
    right. split; [exact Hcl|]. exists dp. split; [exact Hdp|].
    destruct Hcase as [H|[H1 _]]; [left; exact H|lia].
  - (* lost: excluded *)
    rewrite has_app in Ql. cbn in Ql. rewrite orb_true_r in Ql. discriminate.
  - right. split; [exact Hcl|]. exists dp. split; [exact Hdp|exact Hcase].
Qed.

Lemma silent_peer_detected t0 evs :
  k_enabled c = true -> t0 <= sigma ->
  quiet (snd (run c t0 evs)) ->
  bound < now (fst (run c t0 evs)) ->
  exists d, d <= bound /\ In (d, IClose) (snd (run c t0 evs)).
Proof.
  intros Hen Ht0 Q Hlate. pose proof (run_base t0 evs) as Hb.
  destruct (detection_pending _ _ _ Hen Ht0 (run_reach t0 evs) Q) as [[_ H]|[Hcl [dp [Hdp Hcase]]]];
    [exact H|].
  exfalso. unfold bound in *. destruct Hok as [Ht [Hto _]].
  pose proof (b_ping _ _ Hb Hcl dp Hdp). destruct Hcase as [H1|[_ [dc [H2 H3]]]]; [lia|].
  pose proof (b_close _ _ Hb Hcl dc H2). lia.
Qed.

End Detection.

Lemma need_ping_facts s :
  need_ping c s = true ->
  (k_maxp c <> 0 -> pcount s + 1 <= k_maxp c) /\
  (forall lp, last_ping s = Some lp -> lp + k_minint c <= now s).
Proof.
  unfold need_ping. intros H.
  destruct (negb (k_permit c) && negb (0 <? opens s)); [discriminate|].
  destruct (negb (k_maxp c =? 0) && (k_maxp c <=? pcount s)) eqn:E2; [discriminate|].
  split; [lia|]. intros lp Hlp. rewrite Hlp in H.
  destruct (now s - lp <? k_minint c) eqn:E3; [discriminate|lia].
Qed.

(* the counter is the number of PINGs logged since the last data/headers item and stays within
   the budget; last_ping_sent is the latest PING, and the ping timer is due `time` after it *)
Record rate (s : st) (l : log) : Prop := {
  r_count : pcount s = tailcount 0 l;
  r_budget : k_maxp c <> 0 -> pcount s <= k_maxp c;
  r_last : forall p, In (p, IPing) l -> exists lp, last_ping s = Some lp /\ p <= lp;
  r_timer : closed s = false -> forall dp lp, ping_timer s = Some dp -> last_ping s = Some lp ->
            lp + k_time c <= dp
}.

Lemma reach_rate t0 s l : reach t0 s l -> rate s l.
Proof.
  destruct Hok as [Ht [_ [Hmx _]]].
  induction 1 as [|s l s' i R [R1 R2 R3 R4] M];
    [split; cbn; try lia; try discriminate; intros _ []|].
  pose proof (reach_base _ _ _ R) as Hb.
  assert (R3' : last_ping s' = last_ping s -> i <> IPing ->
                forall p, In (p, IPing) (l ++ [(now s', i)]) ->
                  exists lp, last_ping s' = Some lp /\ p <= lp).
  { intros -> Hi p Hin. apply in_app_or in Hin.
    destruct Hin as [Hin|[[= _ ->]|[]]]; [auto|congruence]. }
  split; [rewrite tailcount_app, <- R1|..];
    destruct M as [t _|d Hcl Hpt _ Hn|d Hcl Hpt _ _|d _ _ _| | |i pc ld op Hi Hpc]; cbn in *;
    try discriminate; auto; try (apply R3'; [reflexivity|discriminate]).
  - exact (proj1 (need_ping_facts _ Hn)).
  - intros Hne. subst pc. destruct i; try discriminate Hi; auto; lia.
  - intros p Hin. exists d. split; [reflexivity|]. pose proof (b_ping _ _ Hb Hcl d Hpt).
    apply in_app_or in Hin. destruct Hin as [Hin|[[= <- ]|[]]]; [|lia].
    pose proof (base_in _ _ _ _ Hb Hin). lia.
  - apply R3'; [reflexivity|]. intros ->. discriminate.
  - intros _ dp lp [= <-] [= <-]. lia.
  - intros _ dp lp [= <-] Hl. specialize (R4 Hcl d lp Hpt Hl). lia.
Qed.

Lemma pings_spaced t0 evs l1 p1 l2 p2 :
  snd (run c t0 evs) = l1 ++ (p1, IPing) :: l2 -> In (p2, IPing) l2 ->
  p1 + k_time c <= p2 /\ p1 + k_minint c <= p2.
Proof.
  intros E Hin. apply in_split in Hin. destruct Hin as [a [b ->]].
  rewrite app_comm_cons, app_assoc in E.
  destruct (reach_item _ _ _ _ _ _ _ (run_reach t0 evs) E) as [s0 [s1 [R0 [M <-]]]].
  inversion M as [|d Hcl Hpt _ Hn E1 E2| | | | |? ? ? ? Hi]; [subst s1; cbn|discriminate Hi].
  destruct (reach_rate _ _ _ R0) as [_ _ R3 R4].
  destruct (R3 p1 (in_elt _ _ _)) as [lp [Hlp Hle]]. specialize (R4 Hcl d lp Hpt Hlp).
  pose proof (proj2 (need_ping_facts _ Hn) lp Hlp) as H. cbn in H. lia.
Qed.

Lemma tailcount_nodata seg :
  forallb (fun x => negb (is_data x)) seg = true ->
  forall acc, tailcount acc seg = acc + count_item IPing seg.
Proof.
  unfold count_item. induction seg as [|[t i] seg IH]; cbn; intros H acc; [lia|].
  apply andb_prop in H. destruct H as [Hi H].
  destruct i; try discriminate Hi; rewrite (IH H); cbn [item_eqb length]; lia.
Qed.

Lemma tailcount_nonneg l : forall acc, 0 <= acc -> 0 <= tailcount acc l.
Proof.
  induction l as [|[t i] l IH]; intros acc H; cbn; auto.
  destruct i; apply IH; lia.
Qed.

Lemma pings_budget t0 evs l1 seg l2 :
  k_maxp c <> 0 ->
  snd (run c t0 evs) = l1 ++ seg ++ l2 ->
  forallb (fun x => negb (is_data x)) seg = true ->
  count_item IPing seg <= k_maxp c.
Proof.
  intros Hne E Hnd. rewrite app_assoc in E.
  destruct (reach_prefix _ _ _ (run_reach t0 evs) _ _ E) as [s1 R1].
  destruct (reach_rate _ _ _ R1) as [R1c R1b _ _]. specialize (R1b Hne).
  rewrite R1c, tailcount_app, (tailcount_nodata _ Hnd) in R1b.
  pose proof (tailcount_nonneg l1 0 (Z.le_refl 0)). lia.
Qed.

(* no limits configured: the ping timer never skips *)
Lemma unlimited_never_skips t0 evs q :
  k_permit c = true -> k_maxp c = 0 -> k_minint c <= k_time c ->
  ~ In (q, ISkip) (snd (run c t0 evs)).
Proof.
  intros Hp Hm Hi Hin. apply in_split in Hin. destruct Hin as [a [b E]].
  destruct (reach_item _ _ _ _ _ _ _ (run_reach t0 evs) E) as [s0 [s1 [R0 [M _]]]].
  inversion M as [| |d Hcl Hpt _ Hn E1 E2| | | |? ? ? ? H]; [|discriminate H].
  unfold need_ping in Hn. rewrite Hp, Hm in Hn. cbn in Hn.
  destruct (last_ping s0) as [lp|] eqn:El; [|discriminate].
  pose proof (r_timer _ _ (reach_rate _ _ _ R0) Hcl d lp Hpt El).
  destruct (d - lp <? k_minint c) eqn:E3; [lia|discriminate].
Qed.

Lemma periodic t0 s l :
  reach t0 s l -> closed s = false -> k_enabled c = true ->
  exists k, 1 <= k /\ ping_timer s = Some (t0 + k * k_time c) /\
    forall j, 1 <= j < k ->
      In (t0 + j * k_time c, IPing) l \/ In (t0 + j * k_time c, ISkip) l.
Proof.
  induction 1 as [|s l s' i R IH M]; intros Hc He.
  { exists 1. unfold init. cbn [ping_timer]. rewrite He.
    repeat split; [lia|f_equal; lia|intros; lia]. }
  assert (Hfire : forall d, closed s = false -> ping_timer s = Some d -> i = IPing \/ i = ISkip ->
            exists k, 1 <= k /\ Some (d + k_time c) = Some (t0 + k * k_time c) /\
              forall j, 1 <= j < k ->
                In (t0 + j * k_time c, IPing) (l ++ [(d, i)]) \/
                In (t0 + j * k_time c, ISkip) (l ++ [(d, i)])).
  { intros d Hcl Hpt Hi. destruct (IH Hcl He) as [k [Hk [Hp Hall]]].
    replace d with (t0 + k * k_time c) in * by congruence.
    exists (k + 1). repeat split; [lia|f_equal; lia|]. intros j Hj. rewrite !in_app_iff.
    destruct (Z.eq_dec j k) as [->|Hne]; [destruct Hi as [->| ->]; cbn; auto|].
    destruct (Hall j ltac:(lia)); auto. }
  destruct M as [t _|d Hcl Hpt _ _|d Hcl Hpt _ _|d _ _ _| | |i pc ld op _ _]; cbn in *;
    try discriminate; eauto;
    destruct (IH Hc He) as [k [Hk [Hp Hall]]]; exists k; repeat split; auto;
    intros j Hj; rewrite !in_app_iff; destruct (Hall j Hj); auto.
Qed.

Lemma ping_timer_periodic t0 evs j :
  k_enabled c = true -> closed (fst (run c t0 evs)) = false ->
  1 <= j -> t0 + j * k_time c < now (fst (run c t0 evs)) ->
  In (t0 + j * k_time c, IPing) (snd (run c t0 evs)) \/
  In (t0 + j * k_time c, ISkip) (snd (run c t0 evs)).
Proof.
  intros He Hc Hj Hlate.
  destruct (periodic _ _ _ (run_reach t0 evs) Hc He) as [k [Hk [Hp Hall]]]. apply Hall.
  pose proof (b_ping _ _ (run_base t0 evs) Hc _ Hp). destruct Hok as [Ht _]. nia.
Qed.

End Run.

(* for every configuration, also those the validators reject: by run_ind, not through `reach` *)
Lemma disabled_inert c t0 evs :
  k_enabled c = false ->
  has IPing (snd (run c t0 evs)) = false /\ has ISkip (snd (run c t0 evs)) = false /\
  has IClose (snd (run c t0 evs)) = false.
Proof.
  intros Hd.
  apply (run_ind c t0 (fun s l => (ping_timer s = None /\ close_timer s = None) /\
     (has IPing l = false /\ has ISkip l = false /\ has IClose l = false))).
  - cbn. rewrite Hd. auto.
  - intros s l e [[Hp Hc] [H1 [H2 H3]]]. rewrite !has_app, H1, H2, H3.
    destruct e; cbn; auto.
    unfold tick. rewrite Hp, Hc. cbn. destruct (closed s); cbn; auto.
Qed.

Lemma cfg_okb_ok c : cfg_okb c = true <-> cfg_ok c.
Proof. unfold cfg_okb, cfg_ok. lia. Qed.

Definition sec (n : Z) : Z := n * ticks_per_second.

(* what Configuration.__post_init__ accepts for the keepalive fields *)
Lemma validators :
  (forall fl z, field_accepts n_time (PNum fl z) = (0 <? z)) /\
  field_accepts n_time PNone = true /\
  (forall fl z, field_accepts n_timeout (PNum fl z) = (0 <? z)) /\
  field_accepts n_timeout PNone = false /\
  (forall z, field_accepts n_maxp (PNum false z) = (0 <=? z)) /\
  (forall z, field_accepts n_maxp (PNum true z) = false) /\
  (forall fl z, field_accepts n_minint (PNum fl z) = (0 <? z)) /\
  (forall b, field_accepts n_permit (PBool b) = true) /\
  (forall fl z, field_accepts n_permit (PNum fl z) = false).
Proof.
  repeat split; intros; try (vm_compute; reflexivity);
    unfold field_accepts; cbn; try destruct fl; cbn;
    unfold rejects; cbn; try lia; try reflexivity.
Qed.

Definition is_tick (e : ev) : Prop := match e with Tick _ _ _ => True | _ => False end.

(* no close timer armed and the ping budget used up: clock ticks alone change nothing any more *)
Definition stuck (c : cfg) (s : st) : Prop :=
  closed s = false /\ close_timer s = None /\ k_maxp c <> 0 /\ k_maxp c <= pcount s.

Lemma stuck_tick c s t incl cf :
  stuck c s ->
  stuck c (fst (tick c s t incl cf)) /\
  ping_times (snd (tick c s t incl cf)) = [] /\ has IClose (snd (tick c s t incl cf)) = false.
Proof.
  intros [Hc [Hct [Hm Hp]]]. unfold tick. rewrite Hc, Hct.
  destruct (ping_timer s) as [p|] eqn:Ept; cbn [earliest].
  - destruct (is_due incl p t).
    + cbn [opt_is]. rewrite andb_false_r.
      unfold fire_ping, need_ping. cbn [set_now opens pcount].
      assert (E : negb (k_maxp c =? 0) && (k_maxp c <=? pcount s) = true) by lia.
      rewrite E. destruct (negb (k_permit c) && negb (0 <? opens s)); cbn; repeat split; auto.
    + cbn. repeat split; auto.
  - cbn. repeat split; auto.
Qed.

Lemma stuck_forever c evs :
  Forall is_tick evs -> forall a, stuck c (fst a) ->
  closed (fst (run_from c a evs)) = false /\
  ping_times (snd (run_from c a evs)) = ping_times (snd a) /\
  has IClose (snd (run_from c a evs)) = has IClose (snd a).
Proof.
  induction 1 as [|e evs He _ IH]; intros a Hs; [destruct Hs; auto|].
  destruct e; try contradiction.
  destruct (stuck_tick c (fst a) t incl close_first Hs) as [Hs' [Hp Hcl]].
  specialize (IH (stepl c a (Tick t incl close_first))).
  unfold run_from, stepl in *. cbn [fold_left step] in *.
  destruct (tick c (fst a) t incl close_first) as [s1 o]. cbn [fst snd] in *.
  destruct (IH Hs') as [I1 [I2 I3]].
  rewrite I2, I3, ping_times_app, has_app, Hp, Hcl, app_nil_r, orb_false_r. auto.
Qed.

(* the full-strength claim of the property text: "if a ping stays unanswered for keepalive_timeout
   the connection is closed".  Acknowledgements answer pings in order (reliable ordered transport,
   h2 acks every PING), so with at most k acks in the whole run the (k+1)-th ping is unanswered. *)
Definition unanswered_ping_closes_full : Prop :=
  forall c t0 evs k p, cfg_ok c ->
    nth_error (ping_times (snd (run c t0 evs))) k = Some p ->
    count_item IAck (snd (run c t0 evs)) <= Z.of_nat k ->
    has ILost (snd (run c t0 evs)) = false ->
    p + k_timeout c < now (fst (run c t0 evs)) ->
    exists d, d <= p + k_timeout c /\ In (d, IClose) (snd (run c t0 evs)).

(* keepalive_time 10 s, keepalive_timeout 20 s, pings permitted without calls, the DEFAULT budget of
   2 pings without data, minimum interval 1 s *)
Definition wit_cfg : cfg := mkCfg true (sec 10) (sec 20) true 2 (sec 1).
(* ping at 10 s, ping at 20 s, the ack of the FIRST ping arrives at 25 s (15 s after it was sent,
   within the 20 s timeout), then the peer is dead; the clock runs on to 45 s *)
Definition wit_evs : list ev :=
  [Tick (sec 10) true false; Tick (sec 20) true false; Tick (sec 25) true false; Ack;
   Tick (sec 30) true false; Tick (sec 40) true false; Tick (sec 45) true false].

(* the witness run, evaluated once; everything below reads it off this equation *)
Lemma wit_run :
  run wit_cfg 0 wit_evs =
  (mkSt (sec 45) (Some (sec 50)) None 2 (Some (sec 20)) None 0 false,
   [(sec 10, IPing); (sec 20, IPing); (sec 25, ITick); (sec 25, IAck); (sec 30, ISkip);
    (sec 40, ISkip); (sec 45, ITick)]).
Proof. vm_compute. reflexivity. Qed.

Lemma wit_cfg_ok : cfg_ok wit_cfg.
Proof. apply cfg_okb_ok. reflexivity. Qed.

Lemma unanswered_ping_closes_refuted : ~ unanswered_ping_closes_full.
Proof.
  intros H.
  destruct (H wit_cfg 0 wit_evs 1%nat (sec 20) wit_cfg_ok) as [d [_ Hin]];
    rewrite wit_run in *; try reflexivity.
  apply has_not_in in Hin; [exact Hin|reflexivity].
Qed.

(* ... and it is never detected afterwards, however long the clock runs, as long as the
   application sends nothing: no further ping, no close *)
Lemma dead_peer_never_detected :
  exists c t0 evs p,
    cfg_ok c /\ k_enabled c = true /\ k_permit c = true /\
    nth_error (ping_times (snd (run c t0 evs))) 1 = Some p /\
    count_item IAck (snd (run c t0 evs)) = 1 /\
    forall more, Forall is_tick more ->
      closed (fst (run c t0 (evs ++ more))) = false /\
      has IClose (snd (run c t0 (evs ++ more))) = false /\
      ping_times (snd (run c t0 (evs ++ more))) = ping_times (snd (run c t0 evs)).
Proof.
  exists wit_cfg, 0, wit_evs, (sec 20).
  split; [exact wit_cfg_ok|]. do 2 (split; [reflexivity|]).
  do 2 (split; [rewrite wit_run; reflexivity|]).
  intros more Hm. rewrite run_app.
  destruct (stuck_forever wit_cfg more Hm (run wit_cfg 0 wit_evs)) as [H1 [H2 H3]].
  - rewrite wit_run. repeat split; try reflexivity; cbn; lia.
  - rewrite H3. split; [exact H1|]. split; [rewrite wit_run; reflexivity|exact H2].
Qed.

Lemma need_ping_is_source c s : need_ping_src c s = Some (need_ping c s).
Proof.
  (* whatever shape the condition tree has, both sides are built from the same five tests and
     from last_ping_sent being None or not; a <=? b is read as negb (b <? a), so that `x >= y`,
     `y <= x` and `not x < y` are one test *)
  unfold need_ping_src, need_ping, need_send_ping_src. cbn.
  destruct (last_ping s) as [lp|]; cbn; rewrite ?Z.leb_antisym;
    destruct (k_permit c), (0 <? opens s), (k_maxp c =? 0), (pcount s <? k_maxp c);
    try reflexivity; destruct (now s - lp <? k_minint c); reflexivity.
Qed.

Definition r_ping_timer : list Z := s2z "PING_TIMER".
Definition r_close_timer : list Z := s2z "CLOSE_TIMER".
Definition r_ping_callback : list Z := s2z "PING_CALLBACK".

(* the keepalive effects the model was transcribed from.  The translator normalises first (private
   helpers inlined, tuple loops unrolled, once-bound locals substituted, logging / asserts / payload
   formatting / statistics dropped, attributes named by role, runs of independent simple effects
   sorted), so this is a statement about what the methods DO, not how they are spelled *)
Definition expected_initialize : list kstmt :=
  [SIf (KIsNotNone (ECfg n_time)) [SArm r_ping_timer n_time r_ping_callback]].
Definition expected_ping : list kstmt :=
  [SIf KNeedPing
     [SSendPing; SFlush; SSet n_last_ping ENow; SInc n_count;
      SIf (KNot (KIsNotNone (EAttr r_close_timer))) [SArm r_close_timer n_timeout (s2z "close")]];
   SArm r_ping_timer n_time r_ping_callback].
Definition expected_close : list kstmt :=
  [SIf KOpaque [SCloseTransport];
   SIf (KIsNotNone (EAttr r_ping_timer)) [SCancel r_ping_timer];
   SIf (KIsNotNone (EAttr r_close_timer)) [SCancel r_close_timer]].
Definition expected_ping_ack_process : list kstmt :=
  [SIf (KIsNotNone (EAttr r_close_timer)) [SSet r_close_timer ENone; SCancel r_close_timer]].

(* every DATA / HEADERS frame handed to h2 is followed by the counter reset -- per frame (chunk), not
   per message: in each of the three Stream methods every h2 call is directly followed by the hook *)
Definition site_ok (x : list Z * list Z * Z * Z) : bool :=
  match x with (_, _, calls, followed) => (1 <=? calls) && (calls =? followed) end.

(* boolean checkers for the hypotheses acked_in_time and quiet, for the examples *)
Fixpoint acked_in_timeb (timeout : Z) (l : log) (end_time : Z) : bool :=
  match l with
  | [] => true
  | (p, IPing) :: r =>
      (existsb (fun x => item_eqb (snd x) IAck && (fst x <? p + timeout)) r
       || (end_time <? p + timeout)) && acked_in_timeb timeout r end_time
  | _ :: r => acked_in_timeb timeout r end_time
  end.

Lemma acked_in_timeb_sound timeout l end_time :
  acked_in_timeb timeout l end_time = true -> acked_in_time timeout l end_time.
Proof.
  intros H l1. revert l H. induction l1 as [|x l1 IH]; intros l H p l2 E; subst l.
  - cbn in H. apply andb_prop in H. destruct H as [H _].
    apply orb_prop in H. destruct H as [H|H]; [left|right; lia].
    apply existsb_exists in H. destruct H as [[a i] [Hin Hc]]. cbn in Hc.
    apply andb_prop in Hc. destruct Hc as [Hi Ha]. apply item_eqb_eq in Hi. subst i.
    exists a. split; auto. lia.
  - apply (IH (l1 ++ (p, IPing) :: l2)); auto.
    destruct x as [t i]. cbn in H. destruct i; auto.
    apply andb_prop in H. destruct H as [_ H]. exact H.
Qed.

Definition quietb (c : cfg) (sigma : Z) (l : log) : bool :=
  forallb (fun x => match snd x with
                    | IAck => fst x <? sigma
                    | ILost => false
                    | ISkip => (fst x <? sigma) || (sigma + k_time c <? fst x)
                    | _ => true
                    end) l.

Lemma quietb_sound c sigma l : quietb c sigma l = true -> quiet c sigma l.
Proof.
  unfold quietb, quiet. rewrite forallb_forall. intros H. repeat split.
  - intros a Hin. specialize (H _ Hin). cbn in H. lia.
  - destruct (has ILost l) eqn:E; auto. apply has_in in E. destruct E as [t Hin].
    specialize (H _ Hin). cbn in H. discriminate.
  - intros q Hin. specialize (H _ Hin). cbn in H. lia.
Qed.
