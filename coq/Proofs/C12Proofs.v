(* Lemmas for C12 (peer input never escapes as an internal error; tolerable frames tolerated).
   All statements are about Model/Dispatch.v instantiated with the GENERATED table
   Gen.Facts.processors. *)
From Coq Require Import ZArith List Bool Lia ZifyBool String.
From GV Require Import Lib.Str Lib.StrFacts Gen.Facts Gen.FactsC12 Model.Dispatch.
Import ListNotations.
Open Scope Z_scope.

Lemma mem_str_in k l : mem_str k l = true -> In k l.
Proof. apply mem_str_In. Qed.

Lemma in_mem_str k l : In k l -> mem_str k l = true.
Proof. apply mem_str_In. Qed.

Lemma assoc_none_outside {A} (pub : list (list Z)) (tbl : list (list Z * A)) cls :
  forallb (fun kv => mem_str (fst kv) pub) tbl = true ->
  mem_str cls pub = false -> assoc_str cls tbl = None.
Proof.
  intros K C. induction tbl as [|[k v] r IH]; simpl in *; [reflexivity|].
  apply andb_true_iff in K as [K1 K2].
  destruct (zlist_eqb cls k) eqn:E; [|auto].
  apply zlist_eqb_eq in E. congruence.
Qed.

(* the names used by the model are the texts in the source *)
Lemma names_are_strings :
  n_AlternativeServiceAvailable = s2z "AlternativeServiceAvailable" /\
  n_ConnectionTerminated = s2z "ConnectionTerminated" /\
  n_DataReceived = s2z "DataReceived" /\
  n_InformationalResponseReceived = s2z "InformationalResponseReceived" /\
  n_PingAckReceived = s2z "PingAckReceived" /\
  n_PingReceived = s2z "PingReceived" /\
  n_PriorityUpdated = s2z "PriorityUpdated" /\
  n_PushedStreamReceived = s2z "PushedStreamReceived" /\
  n_RemoteSettingsChanged = s2z "RemoteSettingsChanged" /\
  n_RequestReceived = s2z "RequestReceived" /\
  n_ResponseReceived = s2z "ResponseReceived" /\
  n_SettingsAcknowledged = s2z "SettingsAcknowledged" /\
  n_StreamEnded = s2z "StreamEnded" /\
  n_StreamReset = s2z "StreamReset" /\
  n_TrailersReceived = s2z "TrailersReceived" /\
  n_UnknownFrameReceived = s2z "UnknownFrameReceived" /\
  n_WindowUpdated = s2z "WindowUpdated" /\
  n_process_connection_terminated = s2z "self.process_connection_terminated" /\
  n_process_data_received = s2z "self.process_data_received" /\
  n_process_ping_ack_received = s2z "self.process_ping_ack_received" /\
  n_process_ping_received = s2z "self.process_ping_received" /\
  n_process_priority_updated = s2z "self.process_priority_updated" /\
  n_process_remote_settings_changed = s2z "self.process_remote_settings_changed" /\
  n_process_request_received = s2z "self.process_request_received" /\
  n_process_response_received = s2z "self.process_response_received" /\
  n_process_settings_acknowledged = s2z "self.process_settings_acknowledged" /\
  n_process_stream_ended = s2z "self.process_stream_ended" /\
  n_process_stream_reset = s2z "self.process_stream_reset" /\
  n_process_trailers_received = s2z "self.process_trailers_received" /\
  n_process_window_updated = s2z "self.process_window_updated".
Proof. repeat apply conj; reflexivity. Qed.

Definition expected_table : list (string * string) :=
  [ ("RequestReceived", "self.process_request_received");
    ("ResponseReceived", "self.process_response_received");
    ("RemoteSettingsChanged", "self.process_remote_settings_changed");
    ("SettingsAcknowledged", "self.process_settings_acknowledged");
    ("DataReceived", "self.process_data_received");
    ("WindowUpdated", "self.process_window_updated");
    ("TrailersReceived", "self.process_trailers_received");
    ("StreamEnded", "self.process_stream_ended");
    ("StreamReset", "self.process_stream_reset");
    ("PriorityUpdated", "self.process_priority_updated");
    ("ConnectionTerminated", "self.process_connection_terminated");
    ("PingReceived", "self.process_ping_received");
    ("PingAckReceived", "self.process_ping_ack_received") ]%string.

(* every class the source dispatches on is handled by the method of the same name, nothing else is
   in the table, and every method named there is transcribed in the model *)
Definition table_as_expected : bool :=
  (Nat.eqb (List.length processors) (List.length expected_table)) &&
  forallb (fun p => match assoc_str (s2z (fst p)) processors with
                    | Some n => zlist_eqb n (s2z (snd p))
                    | None => false
                    end) expected_table &&
  forallb (fun kv => mem_str (fst kv) public_classes) processors &&
  forallb (fun kv => match assoc_str (snd kv) (handlers []) with Some _ => true | None => false end)
          processors.

Lemma table_ok : table_as_expected = true.
Proof. vm_compute. reflexivity. Qed.

Lemma keys_public : forallb (fun kv => mem_str (fst kv) public_classes) processors = true.
Proof. pose proof table_ok as T. unfold table_as_expected in T. rewrite !andb_true_iff in T. apply T. Qed.

(* the handler that `process` runs for each event of a live processor *)
Definition handler_spec (rest : list event) (e : event) : state -> event -> result :=
  match e with
  | RequestReceived _ => process_request_received rest
  | ResponseReceived _ => process_response_received
  | TrailersReceived _ => process_trailers_received
  | DataReceived _ _ _ => process_data_received
  | WindowUpdated _ _ => process_window_updated
  | StreamEnded _ => process_stream_ended
  | StreamReset _ _ _ => process_stream_reset
  | RemoteSettingsChanged _ _ => process_remote_settings_changed
  | ConnectionTerminated _ => process_connection_terminated
  | PingAckReceived => process_ping_ack_received
  | SettingsAcknowledged | PingReceived | PriorityUpdated _ => process_nop      (* `pass` handlers *)
  | InformationalResponseReceived _ | PushedStreamReceived _ _ | AlternativeServiceAvailable
  | UnknownFrameReceived _ _ | OtherEvent _ => process_nop                      (* no table entry *)
  end.

Lemma process_spec rest s e :
  event_wf e = true ->
  process rest s e = if st_closed s then Ok s else handler_spec rest e s e.
Proof.
  intro W. unfold process. destruct (st_closed s); [reflexivity|].
  destruct e; try reflexivity.
  (* OtherEvent *)
  simpl in W. apply negb_true_iff in W.
  simpl class_name. rewrite (assoc_none_outside public_classes processors cls keys_public W).
  reflexivity.
Qed.

(* what the functions Model/Dispatch.v transcribes DO (Gen.FactsC12, regenerated from /repo on every run
   by tools/facts_C12.py): per function a sorted SET of effects with private helpers seen through, locals
   abstracted to what they may hold, private attribute names anonymised and control-flow spelling ignored
   (see the header of tools/facts_C12.py); EventsProcessor.process by its dispatch semantics.  A change of
   what one of these functions does -- a lookup turned from .get into [...], another argument handed to
   Buffer.add, another exception class caught in data_received, a handler doing something else -- makes
   shape_as_expected false; a behaviour-preserving rewrite (extract / inline / rename / restructure) does not. *)
Definition expected_shape : list (string * list string) :=
  [
    ("EventsProcessor.process",
     ["dispatch: by the class of the event"; "dispatch: handler called with the event"; "dispatch: missing key tolerated"; "dispatch: missing table tolerated"]);
    ("EventsProcessor.process_request_received",
     ["call self.connection.create_stream({event.stream_id})"; "call self.handler.accept({stream}; {event.headers}; {self.register()})"; "call self.register({stream})"]);
    ("EventsProcessor.process_response_received",
     ["call stream.headers_received.set()"; "get self.streams"; "set stream.headers <- {event.headers}"]);
    ("EventsProcessor.process_remote_settings_changed",
     ["call self.connection.stream_close_waiter.set()"; "call stream.window_updated.set()"; "test SettingCodes.INITIAL_WINDOW_SIZE"; "test SettingCodes.MAX_CONCURRENT_STREAMS"; "test event.changed_settings"; "values self.streams"]);
    ("EventsProcessor.process_settings_acknowledged",
     []);
    ("EventsProcessor.process_data_received",
     ["call self.connection.ack({event.stream_id}; {event.flow_controlled_length})"; "call stream.buffer.add({event.data}; {event.flow_controlled_length})"; "get self.streams"; "set self.connection.data_received <- {+=, len(event.data)}"; "set self.connection.last_data_received <- {time.monotonic()}"; "set stream.data_received <- {+=, len(event.data)}"]);
    ("EventsProcessor.process_window_updated",
     ["call stream.window_updated.set()"; "get self.streams"; "test const:0"; "test event.stream_id"; "values self.streams"]);
    ("EventsProcessor.process_trailers_received",
     ["call stream.trailers_received.set()"; "get self.streams"; "set stream.trailers <- {event.headers}"]);
    ("EventsProcessor.process_stream_ended",
     ["call stream.__ended__()"; "get self.streams"; "set self.connection.streams_succeeded <- {+=, const:1}"]);
    ("EventsProcessor.process_stream_reset",
     ["call self.handler.cancel({stream})"; "call stream.__terminated__({event.error_code, str:Protocol error, str:Stream reset by remote party, error_code: })"; "get self.streams"; "set self.connection.streams_failed <- {+=, const:1}"; "test event.remote_reset"]);
    ("EventsProcessor.process_priority_updated",
     []);
    ("EventsProcessor.process_connection_terminated",
     ["call self.close({event.error_code, str:Received GOAWAY frame, closing connection; error_code: })"]);
    ("EventsProcessor.process_ping_received",
     []);
    ("EventsProcessor.process_ping_ack_received",
     ["call self.connection.ping_ack_process()"]);
    ("EventsProcessor.close",
     ["call self.connection.close()"; "call self.handler.close()"; "call stream.__terminated__({reason})"; "del-tolerant self.processors"; "values self.streams"]);
    ("Connection.ack",
     ["call self._.acknowledge_received_data({size}; {arg1})"; "call self.flush()"; "test size"]);
    ("Stream.__terminated__",
     ["call self.wrapper.cancel({new:StreamTerminatedError, reason})"]);
    ("Stream.__ended__",
     ["call self.buffer.eof()"; "call self.trailers_received.set()"]);
    ("Stream.closable",
     ["call self._.is_closing()"; "call self._.streams.get({self.id})"; "returns {self._.streams.get().closed}"; "test ConnectionState.CLOSED"; "test self._.is_closing()"; "test self._.state_machine.state"]);
    ("Stream.reset_nowait",
     ["call self._.data_to_send()"; "call self._.reset_stream({self.id}; {arg1})"; "call self._.write({self._.data_to_send()})"; "call self.connection.write_ready.is_set()"; "test self.connection.write_ready.is_set()"]);
    ("H2Protocol.data_received",
     ["call self.connection.feed({data})"; "call self.connection.flush()"; "call self.processor.close({str:Protocol error})"; "call self.processor.process({self.connection.feed()})"; "catch ProtocolError, UnicodeDecodeError"]);
    ("H2Protocol.connection_lost",
     ["call self.processor.close({str:Connection lost})"]);
    ("client.Handler.accept",
     ["call release_stream()"; "call stream.reset_nowait({ErrorCodes.REFUSED_STREAM})"; "test stream.closable"]);
    ("client.Handler.cancel",
     []);
    ("client.Handler.close",
     ["set self.connection_lost <- {}"]);
    ("server.Handler.accept",
     ["call request_handler({self.mapping}; {stream}; {headers}; {self.codec}; {self.status_details_codec}; {self.dispatch}; {release_stream})"; "call self.__gc_step__()"; "call self.loop.create_task({request_handler()})"; "call task.add_done_callback({lambda})"; "store self._ <- {stream, task}"]);
    ("server.Handler.cancel",
     ["call task.cancel()"; "pop self._/2"; "store self._ <- {task}"]);
    ("server.Handler.close",
     ["call task.cancel()"; "set self.closing <- {}"; "store self._ <- {task}"; "values self._"]) ]%string.

Fixpoint zll_eqb (a b : list (list Z)) : bool :=
  match a, b with
  | [], [] => true
  | x :: a', y :: b' => zlist_eqb x y && zll_eqb a' b'
  | _, _ => false
  end.

Fixpoint shape_eqb (a : list (list Z * list (list Z))) (b : list (string * list string)) : bool :=
  match a, b with
  | [], [] => true
  | (n, t) :: a', (n', t') :: b' => zlist_eqb n (s2z n') && zll_eqb t (map s2z t') && shape_eqb a' b'
  | _, _ => false
  end.

Definition shape_as_expected : bool :=
  shape_eqb input_path_shape expected_shape.

(* Stream.closable is exactly what h2.reset_stream needs: when it holds, the reset cannot raise *)
Lemma closable_reset_ok rest s sid : closable rest s sid = true -> h2_reset_stream rest sid = None.
Proof.
  unfold closable, h2_reset_stream.
  destruct (st_tclosed s), (h2_conn_closed rest), (h2_stream_closed rest sid); simpl; congruence.
Qed.

Lemma client_accept_ok rest s sid :
  (if closable rest s sid then reset_nowait rest s sid else Ok s) =
  Ok (if closable rest s sid then add_rst s sid else s).
Proof.
  destruct (closable rest s sid) eqn:CL; [|reflexivity].
  unfold reset_nowait. rewrite (closable_reset_ok _ _ _ CL). reflexivity.
Qed.

(* with the numbers h2 hands out, acknowledge_received_data accepts; only the flush after it can fail *)
Lemma conn_ack_wf s sid fcl :
  0 < sid -> 0 <= fcl ->
  conn_ack s sid fcl =
  if fcl =? 0 then Ok s
  else if st_tclosed s then Raises EAttributeError
  else Ok (set_credit s (st_credit s ++ [(sid, fcl)])).
Proof.
  intros. unfold conn_ack. replace ((fcl <? 0) || (sid <=? 0)) with false by lia. reflexivity.
Qed.

Definition good (ro : role) (s : state) : Prop := st_role s = ro /\ inv_b s = true.

(* all that `good` and the closing statements read of a state.  Every setter of the model leaves
   these fields alone, so for a state built from s by setters `flags _ = flags s` holds by
   reflexivity; close_conn is the one operation that changes them. *)
Definition flags (s : state) : role * bool * bool := (st_role s, st_closed s, st_tclosed s).

Lemma good_flags ro s s' : flags s' = flags s -> good ro s -> good ro s'.
Proof. unfold good, inv_b. intros [= -> -> ->]. auto. Qed.

Lemma close_conn_good ro why s : good ro s -> good ro (close_conn why s).
Proof. intros [R _]. split; [exact R | reflexivity]. Qed.

Lemma release_flags s sid : flags (release s sid) = flags s.
Proof. unfold release. destruct (lookup sid (st_reg s)); reflexivity. Qed.

#[local] Hint Unfold process_nop process_request_received process_response_received
  process_trailers_received process_data_received process_window_updated process_stream_ended
  process_stream_reset process_remote_settings_changed process_connection_terminated
  process_ping_ack_received : handlers.

(* one event on a live processor: GOAWAY closes everything, every other handler keeps the flags on
   each of its paths, and the only exception left is the flush of a credit on a transport that
   is gone *)
Lemma process_live rest s e :
  event_wf e = true -> st_closed s = false ->
  match process rest s e with
  | Ok s1 => flags s1 = flags s \/ exists c, e = ConnectionTerminated c /\ s1 = close_conn (RGoaway c) s
  | Raises _ => st_tclosed s = true
  end.
Proof.
  intros W C. rewrite (process_spec rest s e W), C.
  destruct e; simpl in W |- *; autounfold with handlers; simpl; try (left; reflexivity).
  (* left: the handlers that branch *)
  - (* RequestReceived: client = registered, refused (reset only if closable), released;
       server = task started *)
    destruct (st_role s); [|left; reflexivity].
    rewrite client_accept_ok. left. rewrite release_flags. destruct (closable rest _ sid); reflexivity.
  - (* ResponseReceived *) destruct (lookup sid (st_reg s)); left; reflexivity.
  - (* TrailersReceived *) destruct (lookup sid (st_reg s)); left; reflexivity.
  - (* DataReceived: for an unregistered stream the credit is returned, and flushed *)
    destruct (lookup sid (st_reg s)); [left; reflexivity|]. rewrite conn_ack_wf by lia.
    destruct (fcl =? 0); [left; reflexivity|]. destruct (st_tclosed s); [|left]; reflexivity.
  - (* WindowUpdated *) destruct (sid =? 0); [|destruct (lookup sid (st_reg s))]; left; reflexivity.
  - (* StreamEnded *) destruct (lookup sid (st_reg s)); left; reflexivity.
  - (* StreamReset: client cancel = pass; server cancel = pop with a default, never raises *)
    destruct (lookup sid (st_reg s)); [destruct (st_role s)|]; left; reflexivity.
  - (* RemoteSettingsChanged *) destruct iws, mcs; left; reflexivity.
  - (* ConnectionTerminated *) right. eauto.
Qed.

(* one event, either endpoint, every kind: never raises *)
Lemma event_total ro rest s e :
  good ro s -> event_wf e = true ->
  exists s', process rest s e = Ok s' /\ good ro s'.
Proof.
  intros G W. destruct (st_closed s) eqn:C.
  { exists s. unfold process. rewrite C. auto. }
  pose proof (process_live rest s e W C) as L.
  destruct (process rest s e) as [s1|x].
  - destruct L as [F | (c & _ & ->)]; eauto using good_flags, close_conn_good.
  - destruct G as [_ I]. unfold inv_b in I. rewrite C, L in I. discriminate I.
Qed.

Lemma events_total ro evs : forall s,
  good ro s -> forallb event_wf evs = true ->
  exists s', run_events s evs = Ok s' /\ good ro s'.
Proof.
  induction evs as [|e r IH]; intros s G W; simpl in *; [eauto|].
  apply andb_true_iff in W as [W1 W2].
  destruct (event_total ro r s e G W1) as (s1 & E & G1). rewrite E. auto.
Qed.

(* one batch in ANY state whose transport is live while its processor is (inv_b; the driver
   evaluates it on every real pre-state) *)
Lemma batch_total ro s b :
  good ro s -> input_wf (IData b) = true ->
  exists s', data_received s b = Ok s' /\ good ro s'.
Proof.
  intros G W. destruct b; simpl.
  1, 2: eauto using close_conn_good.
  exact (events_total ro evs s G W).
Qed.

(* whole histories (events interleaved with everything else that touches the state) *)
Lemma step_total ro s i :
  good ro s -> input_wf i = true ->
  exists s', step s i = Ok s' /\ good ro s'.
Proof.
  intros G W. pose proof (good_flags ro s) as K. destruct i; simpl.
  - destruct (st_tclosed s); [eauto | exact (batch_total ro s b G W)].
  - eauto using close_conn_good.
  (* the other inputs build their result from s by setters and `release`: K applies *)
  - destruct (st_role s); eauto.
  - eauto using release_flags.
  - destruct (lookup sid (st_reg s)); eauto.
  - eauto using (release_flags s sid).
  - destruct (lookup sid (st_reg s)) as [r|]; [destruct (0 <? s_queue r)|]; eauto.
  - destruct (lookup sid (st_reg s)); eauto.
  - destruct (st_role s); eauto.
Qed.

(* the totality statement: either endpoint, every history, every event kind.  The only
   hypothesis left is event_wf (what h2 guarantees about the numbers it hands out: DataReceived is
   for a real stream id and lengths are not negative -- h2.acknowledge_received_data would raise
   ValueError otherwise -- and an OtherEvent really is of another class). *)
Lemma history_total ro h : forall s,
  good ro s -> forallb input_wf h = true ->
  exists s', run s h = Ok s' /\ good ro s'.
Proof.
  induction h as [|i r IH]; intros s G W; simpl in *; [eauto|].
  apply andb_true_iff in W as [W1 W2].
  destruct (step_total ro s i G W1) as (s1 & E & G1). rewrite E. auto.
Qed.

Lemma lookup_upd_same sid v l : lookup sid (upd sid v l) = Some v.
Proof.
  induction l as [|[k w] r IH]; simpl.
  - rewrite Z.eqb_refl. reflexivity.
  - destruct (k =? sid) eqn:E; simpl; rewrite E; auto.
Qed.

Lemma remove_upd_absent sid v l : lookup sid l = None -> remove sid (upd sid v l) = l.
Proof.
  induction l as [|[k w] r IH]; simpl; intro L.
  - rewrite Z.eqb_refl. reflexivity.
  - destruct (k =? sid) eqn:E; [discriminate|]. simpl. rewrite E. f_equal. auto.
Qed.

(* a stream opened by the peer towards a client is refused and leaves no trace: the slot waiters are
   woken, an RST_STREAM is sent exactly when the stream is still closable, and that is all *)
Lemma client_request_refused rest s sid :
  st_role s = Client -> st_closed s = false -> lookup sid (st_reg s) = None ->
  process rest s (RequestReceived sid) =
  Ok (set_waiter (if closable rest s sid then add_rst s sid else s) true).
Proof.
  intros R C L. rewrite process_spec, C by reflexivity. simpl.
  unfold process_request_received. simpl. rewrite R, client_accept_ok. unfold release.
  (* closable does not read the registry *)
  change (closable rest (set_reg s _) sid) with (closable rest s sid).
  destruct (closable rest s sid); simpl; rewrite lookup_upd_same, (remove_upd_absent _ _ _ L);
    reflexivity.
Qed.

Lemma pop_task_absent sid l :
  existsb (live_task sid) l = false -> pop_task sid l = l.
Proof.
  induction l as [|t r IH]; simpl; intro H; [reflexivity|].
  apply orb_false_iff in H as [H1 H2]. rewrite H1, (IH H2). reflexivity.
Qed.

(* a StreamReset for a registered stream whose task is no longer in _tasks (reset before, or
   finished): the wrapper is terminated (again), the handler tables are untouched, nothing raises *)
Lemma late_reset_tolerated rest s sid code remote r :
  st_role s = Server -> st_closed s = false ->
  lookup sid (st_reg s) = Some r -> has_live_task sid (st_h s) = false ->
  exists s', process rest s (StreamReset sid code remote) = Ok s' /\
    st_h s' = st_h s /\
    st_reg s' = upd sid (terminated (if remote then RRemoteReset code else RProtocolError) r) (st_reg s).
Proof.
  intros R C L H. rewrite process_spec, C by reflexivity. simpl.
  unfold process_stream_reset. simpl. rewrite L, R.
  eexists; split; [reflexivity|]. simpl. rewrite (pop_task_absent _ _ H).
  destruct (st_h s); auto.
Qed.

Definition tolerated (e : event) : bool :=
  match e with
  | UnknownFrameReceived _ _ | AlternativeServiceAvailable | PriorityUpdated _ | PingReceived
  | InformationalResponseReceived _ | PushedStreamReceived _ _ | SettingsAcknowledged
  | OtherEvent _ => true
  | _ => false
  end.

Lemma tolerated_ignored rest s e : tolerated e = true -> event_wf e = true -> process rest s e = Ok s.
Proof.
  intros T W. rewrite (process_spec rest s e W). destruct (st_closed s); [reflexivity|].
  destruct e; try discriminate T; reflexivity.
Qed.

Definition stream_addressed (e : event) : option Z :=
  match e with
  | ResponseReceived sid | TrailersReceived sid | StreamEnded sid | StreamReset sid _ _
  | DataReceived sid _ _ => Some sid
  | WindowUpdated sid _ => if sid =? 0 then None else Some sid
  | _ => None
  end.

(* everything a call can observe: registry with every stream record, handler, closed flags, wake-up
   flag of slot waiters, keepalive timer *)
Definition same_calls (s s' : state) : Prop :=
  st_role s' = st_role s /\ st_reg s' = st_reg s /\ st_h s' = st_h s /\
  st_closed s' = st_closed s /\ st_tclosed s' = st_tclosed s /\
  st_waiter s' = st_waiter s /\ st_ping s' = st_ping s /\ st_rst s' = st_rst s.

Definition returned_credit (s : state) (e : event) : list (Z * Z) :=
  match e with
  | DataReceived sid _ fcl => if st_closed s || (fcl =? 0) then [] else [(sid, fcl)]
  | _ => []
  end.

(* the result is s with new statistics and, for DataReceived, new credit, which same_calls does not
   read: exhibit it and compare it with s field by field *)
Ltac exhibit := eexists; split; [reflexivity | unfold same_calls; simpl; rewrite ?app_nil_r; tauto].

(* an event addressed to a stream that is not (no longer) registered *)
Lemma unregistered_tolerated rest s e sid :
  inv_b s = true -> event_wf e = true ->
  stream_addressed e = Some sid -> lookup sid (st_reg s) = None ->
  exists s', process rest s e = Ok s' /\ same_calls s s' /\
             st_credit s' = st_credit s ++ returned_credit s e.
Proof.
  intros I W A L. rewrite (process_spec rest s e W). unfold returned_credit.
  destruct (st_closed s) eqn:C; [destruct e; exhibit|].
  assert (T : st_tclosed s = false) by (unfold inv_b in I; rewrite C in I; apply negb_true_iff, I).
  destruct e; try discriminate A; simpl in A, W |- *; autounfold with handlers; simpl.
  - injection A as ->. rewrite L. exhibit.
  - injection A as ->. rewrite L. exhibit.
  - injection A as ->. rewrite L, conn_ack_wf, T by lia. destruct (fcl =? 0); exhibit.
  - destruct (sid0 =? 0) eqn:Z0; [discriminate A|]. injection A as ->. rewrite L. exhibit.
  - injection A as ->. rewrite L. exhibit.
  - injection A as ->. rewrite L. exhibit.
Qed.

Lemma forallb_map_true {A B} (f : A -> B) (p : B -> bool) l :
  (forall a, p (f a) = true) -> forallb p (map f l) = true.
Proof. intro H. induction l as [|a r IH]; simpl; [|rewrite H]; auto. Qed.

Lemma stream_terminated_refl why r : stream_terminated why (terminated why r) = true.
Proof.
  unfold stream_terminated, terminated. destruct (s_wrapper r) eqn:Wr; simpl.
  - destruct why; simpl; auto; apply Z.eqb_refl.
  - rewrite Wr. reflexivity.
Qed.

Lemma close_task_cancelled t : task_cancelled (close_task t) = true.
Proof.
  unfold task_cancelled, close_task. destruct (t_live t) eqn:Lv; simpl; [|rewrite Lv]; reflexivity.
Qed.

Lemma closed_ignores_all evs : forall s, st_closed s = true -> run_events s evs = Ok s.
Proof.
  induction evs as [|e r IH]; intros s C; simpl; auto.
  unfold process. rewrite C. auto.
Qed.

(* a closed connection is shut down, and stays so: whatever arrives later is ignored *)
Lemma close_conn_final why s :
  shut_down why (close_conn why s) = true /\
  (forall evs, run_events (close_conn why s) evs = Ok (close_conn why s)) /\
  (forall b, step (close_conn why s) (IData b) = Ok (close_conn why s)).
Proof.
  split; [|split; [intro evs; apply closed_ignores_all|]; reflexivity].
  unfold shut_down, close_conn, map_reg. simpl.
  rewrite forallb_map_true by (intro; apply stream_terminated_refl).
  destruct (st_role s); simpl; [|rewrite forallb_map_true by apply close_task_cancelled]; reflexivity.
Qed.

(* events that close a live processor: the first GOAWAY among them does, the rest is ignored *)
Lemma closing_events evs : forall s s',
  forallb event_wf evs = true -> run_events s evs = Ok s' ->
  st_closed s = false -> st_closed s' = true ->
  exists c s1, s' = close_conn (RGoaway c) s1.
Proof.
  induction evs as [|e r IH]; intros s s' W P C C'; simpl in *.
  - injection P as <-. congruence.
  - apply andb_true_iff in W as [W1 W2]. pose proof (process_live r s e W1 C) as L.
    destruct (process r s e) as [s1|x]; [|discriminate P].
    destruct L as [F | (c & _ & ->)].
    + apply (IH s1 s' W2 P); [|exact C']. unfold flags in F. congruence.
    + rewrite closed_ignores_all in P by reflexivity. injection P as <-. eauto.
Qed.

(* violation or GOAWAY: whenever a batch closes the connection it ends in a close_conn *)
Lemma closing_batch s b s' :
  input_wf (IData b) = true -> data_received s b = Ok s' ->
  st_closed s = false -> st_closed s' = true ->
  exists why s1, s' = close_conn why s1.
Proof.
  intros W P C C'. destruct b; simpl in W, P.
  1, 2: injection P as <-; eauto.
  destruct (closing_events evs s s' W P C C') as (c & s1 & ->). eauto.
Qed.

(* running a PREFIX of a batch: its events are processed while h2 has already digested `tail`,
   the rest of the batch (run_events = run_events_in []) *)
Fixpoint run_events_in (tail : list event) (s : state) (evs : list event) : result :=
  match evs with
  | [] => Ok s
  | e :: r => match process (r ++ tail) s e with
              | Ok s1 => run_events_in tail s1 r
              | Raises x => Raises x
              end
  end.

Lemma run_events_in_nil evs : forall s, run_events_in [] s evs = run_events s evs.
Proof.
  induction evs as [|e r IH]; intro s; simpl; auto.
  rewrite app_nil_r. destruct (process r s e); auto.
Qed.

Lemma run_events_in_app tail pre post : forall s,
  run_events_in tail s (pre ++ post) =
  match run_events_in (post ++ tail) s pre with
  | Ok s1 => run_events_in tail s1 post
  | Raises x => Raises x
  end.
Proof.
  induction pre as [|e r IH]; intro s; simpl; auto.
  rewrite <- app_assoc. destruct (process (r ++ post ++ tail) s e); auto.
Qed.

Lemma run_events_app s pre post :
  run_events s (pre ++ post) =
  match run_events_in post s pre with Ok s1 => run_events s1 post | Raises x => Raises x end.
Proof.
  rewrite <- !run_events_in_nil, run_events_in_app, app_nil_r.
  destruct (run_events_in post s pre); auto. apply run_events_in_nil.
Qed.

(* what the input path can learn about the rest of a batch: is a GOAWAY ahead, is a reset of a
   given stream ahead -- nothing else *)
Definition same_ahead (a b : list event) : Prop :=
  h2_conn_closed a = h2_conn_closed b /\ forall sid, h2_stream_closed a sid = h2_stream_closed b sid.

Lemma process_ahead a b s e : same_ahead a b -> process a s e = process b s e.
Proof.
  intros [H1 H2]. unfold process. destruct (st_closed s); auto.
  destruct (assoc_str (class_name e) processors) as [name|]; auto.
  (* of the handlers only the first reads the rest of the batch *)
  unfold run_handler, handlers. cbn [assoc_str].
  destruct (zlist_eqb name n_process_request_received); [|reflexivity].
  unfold process_request_received. destruct (f_stream_id e) as [sid|]; auto.
  unfold closable, reset_nowait, h2_reset_stream. rewrite H1, (H2 sid). reflexivity.
Qed.

(* a tolerable event can be dropped from any place of any batch: it is ignored itself, and the
   events before it find h2 in the same state without it *)
Lemma skip_tolerated pre e post : forall s,
  tolerated e = true -> event_wf e = true ->
  run_events s (pre ++ e :: post) = run_events s (pre ++ post).
Proof.
  intros s T W.
  assert (A : is_goaway e = false /\ forall sid, is_reset_of sid e = false)
    by (destruct e; try discriminate T; auto).
  destruct A as [A B]. revert s. induction pre as [|x r IH]; intro s; simpl.
  - rewrite tolerated_ignored; auto.
  - rewrite (process_ahead (r ++ e :: post) (r ++ post)); [destruct (process (r ++ post) s x); auto|].
    unfold same_ahead, h2_conn_closed, h2_stream_closed.
    split; [|intro sid]; rewrite !existsb_app; simpl; rewrite ?A, ?B; reflexivity.
Qed.

(* tolerable events injected at any point of any batch change nothing at all *)
Lemma tolerated_anywhere pre tol post : forall s,
  forallb tolerated tol = true -> forallb event_wf tol = true ->
  run_events s (pre ++ tol ++ post) = run_events s (pre ++ post).
Proof.
  induction tol as [|e r IH]; intros s T W; simpl in *; [reflexivity|].
  apply andb_true_iff in T as [T1 T2], W as [W1 W2]. rewrite skip_tolerated; auto.
Qed.

Lemma tolerated_list_ignored evs : forall s,
  forallb tolerated evs = true -> forallb event_wf evs = true -> run_events s evs = Ok s.
Proof.
  intros s T W. rewrite <- (app_nil_r evs). exact (tolerated_anywhere [] evs [] s T W).
Qed.

(* histories on which data_received raised before /repo was repaired; Proofs/C12Examples.v runs them.
   Client: a peer opens a stream (NotImplementedError from client.Handler.accept, D21), with a GOAWAY
   or a reset of that stream later in the same batch (h2.reset_stream raising) *)
Definition client_witness : list input :=
  [IRegister 1; IData (H2Events [RequestReceived 2])].
Definition client_witness_goaway : list input :=
  [IRegister 1; IData (H2Events [RequestReceived 2; ConnectionTerminated 0])].
Definition client_witness_reset : list input :=
  [IRegister 1; IData (H2Events [RequestReceived 2; StreamReset 2 8 true])].
(* server: a second StreamReset for a stream whose handler task was already popped (KeyError from
   `_tasks.pop(stream)` in server.Handler.cancel) *)
Definition server_witness : list input :=
  [IData (H2Events [RequestReceived 1; StreamReset 1 8 true; StreamReset 1 8 true])].
