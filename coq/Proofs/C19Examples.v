(* Non-vacuity examples for Props/C19.v: concrete non-trivial inputs that satisfy the hypotheses of the
   theorems, evaluated by the kernel. *)
From Coq Require Import ZArith List Bool.
From GV Require Import Gen.FactsC19 Model.Health Proofs.C19Proofs Proofs.C19WatchProofs Proofs.C19CheckProofs.
Import ListNotations.
Open Scope Z_scope.

Example agg_all_true : agg_status [STrue; STrue; STrue] = R_SERVING.
Proof. vm_compute; reflexivity. Qed.
Example agg_all_none : agg_status [SNone; SNone] = R_UNKNOWN.
Proof. vm_compute; reflexivity. Qed.
Example agg_mixed : agg_status [STrue; SNone] = R_NOT_SERVING /\ agg_status [STrue; SFalse; STrue] = R_NOT_SERVING
                    /\ agg_status [SFalse] = R_NOT_SERVING.
Proof. vm_compute; repeat split. Qed.
(* _status(set()) -- never evaluated by Health: the empty check list is answered SERVING before *)
Example agg_empty : agg_status [] = R_NOT_SERVING.
Proof. vm_compute; reflexivity. Qed.

Definition ex_cfg : list (Z * list nat) := [(1, [0; 1]%nat); (2, [1; 2; 2]%nat); (3, [])].
Example ex_registry :
  health_init (Some ex_cfg) = [(1, [0; 1]%nat); (2, [1; 2]%nat); (3, []); (0, [0; 1; 2]%nat)].
Proof. vm_compute; reflexivity. Qed.
Example ex_cfg_has_no_overall : existsb (fun kv => fst kv =? overall) ex_cfg = false.
Proof. vm_compute; reflexivity. Qed.
Example ex_check :
  let reg := health_init (Some ex_cfg) in
  check_rpc reg [STrue; STrue; SNone] 1 = CA_Resp R_SERVING /\
  check_rpc reg [STrue; STrue; SNone] 2 = CA_Resp R_NOT_SERVING /\
  check_rpc reg [STrue; SNone; SNone] 2 = CA_Resp R_UNKNOWN /\
  check_rpc reg [STrue; STrue; SNone] 3 = CA_Resp R_SERVING /\
  check_rpc reg [STrue; STrue; STrue] 0 = CA_Resp R_SERVING /\
  check_rpc reg [STrue; STrue; SNone] 9 = CA_Status 5 /\
  lookup reg 9 = None /\ lookup reg 1 = Some [0; 1]%nat.
Proof. vm_compute; repeat split. Qed.

(* Watch: a set lands between the steps of the wait tasks and of the Watch task *)
Definition ex_reg : registry := health_init (Some [(1, [0; 1]%nat)]).
Definition ex_ops : list wop :=
  [OWatch 1 false;                                   (* first message: UNKNOWN *)
   OLocal 0 (LWaitRun 0); OLocal 0 (LWaitRun 1);     (* both wait tasks block *)
   OSet 0 STrue;                                     (* event 0 set, wait 0 woken *)
   OLocal 0 (LWaitRun 0); OLocal 0 LCompl;           (* wait 0 done, asyncio.wait resolved *)
   OSet 1 STrue;                                     (* lands before the Watch task runs *)
   OLocal 0 LRunW;                                   (* reads (True, True): SERVING; wait 1 woken, kept *)
   OSet 0 SFalse;                                    (* while the new wait 0 has not even started *)
   OLocal 0 (LWaitRun 1); OLocal 0 LCompl; OLocal 0 LRunW;   (* NOT_SERVING *)
   OLocal 0 (LWaitRun 0); OLocal 0 LCompl; OLocal 0 LRunW;   (* NOT_SERVING again (duplicate) *)
   OLocal 0 (LWaitRun 0); OLocal 0 (LWaitRun 1)].
Example ex_watch_run :
  let s := wrun (winit ex_reg [SNone; SNone]) ex_ops in
  exists w, s_ws s = [w] /\ w_pc w = PWaiting /\ forallb slot_quiet (w_slots w) = true /\
            rev (w_sent w) = [R_UNKNOWN; R_SERVING; R_NOT_SERVING; R_NOT_SERVING] /\
            cur_status (s_vals s) (w_slots w) = R_NOT_SERVING /\ quiescent s = true.
Proof. eexists. vm_compute. repeat split. Qed.

(* the same scenario under the FIFO ready queue (what the correspondence runs execute) coalesces the two
   later changes into one message *)
Example ex_watch_fifo :
  let sq := fold_left (run_cmd 100) [CSpawn (OWatch 1 false); CSettle; CExt (OSet 0 STrue); CIter 2;
                                     CExt (OSet 1 STrue); CIter 1; CExt (OSet 0 SFalse); CSettle]
                      (winit ex_reg [SNone; SNone], []) in
  map (fun w => rev (w_sent w)) (s_ws (fst sq)) = [[R_UNKNOWN; R_SERVING; R_NOT_SERVING]] /\ snd sq = [] /\
  quiescent (fst sq) = true.
Proof. vm_compute. repeat split. Qed.

(* a blocked send_message, a second watcher on OVERALL, an unsubscription, an unregistered service *)
Example ex_watch_slow :
  let s := wrun (winit ex_reg [STrue; SNone])
                [OWatch 1 true; OWatch 0 false; OWatch 7 false; OSet 1 STrue;
                 OLocal 0 (LWaitRun 0); OLocal 0 (LWaitRun 1); OLocal 1 (LWaitRun 0); OLocal 1 (LWaitRun 1);
                 OLocal 1 LCompl; OLocal 1 LRunW; OLocal 1 LCancel; OSet 0 SNone;
                 OLocal 0 LSendDone; OLocal 0 LCompl; OLocal 0 LRunW; OLocal 0 (LSetSlow false);
                 OLocal 0 LSendDone; OLocal 0 (LWaitRun 0); OLocal 0 (LWaitRun 1);
                 OLocal 0 LCompl; OLocal 0 LRunW; OLocal 0 (LWaitRun 0); OLocal 0 (LWaitRun 1)] in
  map (fun w => (w_pc w, rev (w_sent w))) (s_ws s) =
    [(PWaiting, [R_NOT_SERVING; R_NOT_SERVING; R_NOT_SERVING]); (PEnded, [R_NOT_SERVING; R_SERVING]); (PIdle, [R_SERVICE_UNKNOWN])]
  /\ quiescent s = true /\ cur_status (s_vals s) (w_slots (hd (mkW PEnded false [] []) (s_ws s))) = R_NOT_SERVING.
Proof. vm_compute. repeat split. Qed.

Example ex_watch_measure : sys_mu (wrun (winit ex_reg [SNone; SNone]) [OWatch 1 false; OSet 0 STrue]) = 10%nat.
Proof. vm_compute; reflexivity. Qed.

(* ServiceCheck (ticks of 1/8 s: check_ttl = 30 s, check_timeout = 10 s) *)
Definition k0 := kinit 240 80 0.

(* a 50 s check: interrupted at 10 s, counts as failing; a waiter is released with it; later a fast check passes *)
Definition ex_kops : list kop :=
  [KCall; KAdvance 40; KCall; KAdvance 400; KTimeout; KResume 1;
   KAdvance 100; KCall;                      (* cached: 100 < 240 *)
   KAdvance 200; KCall; KFuncEnd FTrue].
Example ex_check_run :
  let k := krun k0 ex_kops in
  k_value k = STrue /\ k_callers k = [CRet SFalse 80; CRet SFalse 80; CRet SFalse 180; CRet STrue 380] /\
  invocations k = [(380, Some 380, Some (HRet FTrue)); (0, Some 80, Some HTimeout)] /\
  k_notes k = [(380, STrue); (80, SFalse)] /\ k_lock k = true.
Proof. vm_compute. repeat split. Qed.

Example ex_runner : runner_state (krun k0 [KCall; KAdvance 3]) = Some false.
Proof. vm_compute; reflexivity. Qed.
Example ex_at_deadline :
  let k := krun k0 [KCall; KAdvance 500] in
  runner_state k = Some false /\ k_run k = Some (0, Some (0 + k_tmo k), SNone) /\ k_now k = 0 + k_tmo k.
Proof. vm_compute. repeat split. Qed.
Example ex_cancelling : runner_state (krun k0 [KCall; KAdvance 3; KCancel 0]) = Some true.
Proof. vm_compute; reflexivity. Qed.
Example ex_expired :
  let k := krun k0 [KCall; KFuncEnd FRaise; KAdvance 240] in
  cached k = false /\ k_lock k = true /\ 0 < k_tmo k /\ k_value k = SFalse.
Proof. vm_compute. repeat split. Qed.
Example ex_fresh : cached (krun k0 [KCall; KFuncEnd FNone; KAdvance 239]) = true.
Proof. vm_compute; reflexivity. Qed.
Example ex_zero_timeout :
  let k := kstep (kinit 240 0 0) KCall in k_value k = SFalse /\ k_log k = [] /\ k_callers k = [CRet SFalse 0].
Proof. vm_compute. repeat split. Qed.
Example ex_nonbool : k_value (krun k0 [KCall; KFuncEnd FTrue; KAdvance 300; KCall; KFuncEnd FNonBool]) = SFalse.
Proof. vm_compute; reflexivity. Qed.
Example ex_waiters_blocked :
  let k := krun k0 [KCall; KCall; KCall] in k_callers k = [CRun false; CWait; CWait] /\ k_lock k = false.
Proof. vm_compute. repeat split. Qed.
Example ex_lost_cancel :
  k_callers (krun k0 lost_cancel_witness) = [CRet SFalse 80].
Proof. vm_compute; reflexivity. Qed.
Example ex_timed_runner :
  let t := run_timed 100 240 80 [(400, FTrue); (0, FTrue)] [(0, TCall None); (40, TCall None); (800, TCall None)] 8000 in
  k_callers (t_k t) = [CRet SFalse 80; CRet SFalse 80; CRet STrue 800] /\
  k_log (t_k t) = [(800, 800, HRet FTrue); (0, 80, HTimeout)].
Proof. vm_compute. repeat split. Qed.
