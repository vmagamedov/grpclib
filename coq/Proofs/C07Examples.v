(* Non-vacuity examples for C07: concrete histories, decided by vm_compute, that satisfy the
   hypotheses of the theorems in Props/C07.v; and the witness that refutes the per-sender
   completion bound of DESIGN section 2 (C07, item 5). *)
From Coq Require Import ZArith List Bool Lia.
From GV Require Import Model.FlowSend Proofs.C07Proofs.
Import ListNotations.
Open Scope Z_scope.

(* two senders: 100 bytes and 10 bytes, stream windows 50, connection window 65535 *)
Definition ex_cfg : list (Z * Z) := [(100, 50); (10, 50)].
Definition ex_init : state := init ex_cfg 65535 50 16384.

Example ex_wf : wf_cfg ex_cfg 16384.
Proof. split; [lia|]. repeat constructor; cbn; lia. Qed.

(* first FIFO run: sender 0 sends its 50 bytes of stream credit and starves, sender 1 completes *)
Example ex_first_run :
  snd (fifo_result None ex_init) = [mkChunk 0 0 50; mkChunk 1 0 10] /\
  map s_pc (senders (fst (fifo_result None ex_init))) = [WaitWindow; Done] /\
  quiescent (fst (fifo_result None ex_init)) = true.
Proof. vm_compute. auto. Qed.

Definition ex_s1 : state := fst (fifo_result None ex_init).

Example ex_s1_reachable : reachable ex_cfg 65535 50 16384 ex_s1.
Proof.
  split; [exact ex_wf|]. destruct (fifo_is_schedule None ex_init) as [ops [_ H]].
  exists ops. unfold ex_s1. now rewrite <- H.
Qed.

(* the starved sender is exactly in the situation described by progress / no_lost_wakeup *)
Example ex_starved :
  exists x, nth_error (senders ex_s1) 0 = Some x /\ s_pc x = WaitWindow /\ local_window ex_s1 x = 0.
Proof. eexists; vm_compute; auto. Qed.

(* history with every kind of peer action: stream update, pause, connection update while paused,
   resume, SETTINGS lowering the window below zero and raising it again, larger frames *)
Definition ex_ops : list op :=
  [Run 0; Run 0; Run 0; Run 0; Run 1; Run 1;          (* = ex_first_run *)
   WinStream 0 30; Run 0; Run 0; Run 0; Run 0;        (* 30 more bytes, starves again *)
   Pause; WinStream 0 5; Run 0;                       (* woken while paused: blocks on write_ready *)
   SetInitWin 0; Resume; Run 0; Run 0;                (* windows negative: starves *)
   SetMaxFrame 32768; SetInitWin 65535; Run 0; Run 0; Run 0].

Example ex_history :
  let (s, tr) := run ex_init ex_ops in
  tr = [mkChunk 0 0 50; mkChunk 1 0 10; mkChunk 0 50 30; mkChunk 0 80 20] /\
  map s_pc (senders s) = [Done; Done] /\ map s_win (senders s) = [65470; 65525] /\
  cwin s = 65425 /\ broken s = false.
Proof. vm_compute. auto. Qed.

(* in the middle of it the stream windows are negative and nothing is sent *)
Example ex_negative_window :
  let s := fst (run ex_init (firstn 18 ex_ops)) in
  map s_win (senders s) = [-45; -10] /\ map s_pc (senders s) = [WaitWindow; Done] /\
  quiescent s = true.
Proof. vm_compute. auto. Qed.

(* a granted round in the sense of `rounds` *)
Example ex_round : rounds 0 1 ex_s1 (fst (run ex_s1 [WinStream 0 30; Run 0; Run 0; Run 0; Run 0])).
Proof.
  apply (rounds_S 0 0 ex_s1 [WinStream 0 30] [Run 0; Run 0; Run 0; Run 0]).
  - split; [reflexivity|]. split; [reflexivity|]. eexists. split; [vm_compute; reflexivity|].
    split; [discriminate|]. vm_compute. reflexivity.
  - reflexivity.
  - vm_compute. reflexivity.
  - apply rounds_0.
Qed.

Example ex_ample :
  ample (fst (run ex_s1 [WinStream 0 1000])).
Proof.
  remember (fst (run ex_s1 [WinStream 0 1000])) as s eqn:Hs. vm_compute in Hs. subst s.
  split; [reflexivity|]. split; [reflexivity|]. split; [vm_compute; discriminate|].
  repeat constructor; vm_compute; intros; try discriminate; congruence.
Qed.

(* an empty message needs a positive window and produces one empty DATA frame *)
Example ex_empty_message :
  snd (fifo_result None (init [(0, 0)] 10 0 16384)) = [] /\
  snd (fifo_result None (fst (run (init [(0, 0)] 10 0 16384) [Run 0; Run 0; WinStream 0 1])))
    = [mkChunk 0 0 0].
Proof. vm_compute. auto. Qed.

(* a sender woken by resume_writing sends one chunk even if the transport paused again before it
   ran, then blocks (asyncio: a woken waiter runs even if the flag was cleared meanwhile) *)
Example ex_woken_then_paused :
  let s0 := init [(40000, 65535)] 65535 65535 16384 in
  let (s, tr) := run s0 [Pause; Run 0; Resume; Pause; Run 0; Run 0] in
  tr = [mkChunk 0 0 16384] /\ map s_pc (senders s) = [WaitWrite].
Proof. vm_compute. auto. Qed.

(* the transport pausing from inside its second write() *)
Example ex_sync_pause :
  let s0 := init [(40000, 65535)] 65535 65535 16384 in
  snd (fifo_result (Some 1%nat) s0) = [mkChunk 0 0 16384; mkChunk 0 16384 16384] /\
  map s_pc (senders (fst (fifo_result (Some 1%nat) s0))) = [WaitWrite].
Proof. vm_compute. auto. Qed.

(* REFUTED: "a sender whose local window the peer makes positive progresses at the next
   quiescence" (DESIGN section 2, C07 item 5 claimed `i finishes within remaining_i wake-ups`).
   Two senders on an exhausted connection window; the peer grants 10 bytes of connection credit;
   both are woken, the FIFO order (= registry order) runs sender 0 first, which uses all of it. *)
Definition cx_init : state := init [(100, 65535); (5, 65535)] 0 65535 16384.
Definition cx_s : state := fst (run (fst (fifo_result None cx_init)) [WinConn 10]).

Example competitor_uses_the_grant :
  granted cx_s 1 /\
  (let r := fifo_result None cx_s in
   quiescent (fst r) = true /\ snd r = [mkChunk 0 0 10] /\
   exists x, nth_error (senders (fst r)) 1 = Some x /\ s_pos x = 0 /\ s_pc x = WaitWindow).
Proof.
  split.
  - split; [reflexivity|]. split; [reflexivity|]. eexists. split; [vm_compute; reflexivity|].
    split; [discriminate|]. vm_compute. reflexivity.
  - vm_compute. repeat split; auto. eexists; repeat split; reflexivity.
Qed.

(* The class "reset while paused, resume that re-pauses inside its flush, then credit returns":
   a sender starved of stream credit; the transport pauses; another call is cancelled (reset_nowait
   queues an RST_STREAM in h2); the transport resumes and pauses again from inside the write of
   that RST; the peer grants credit.  The sender is woken, finds write_ready clear, writes nothing. *)
Definition rp_ops : list cop :=
  [Op (Run 0); Op (Run 0); Op (Run 0); Op (Run 0);      (* 50 bytes sent, starved *)
   Op Pause; ResetAux; ResumeP; Op (WinStream 0 1000)].
Definition rp_c : conn := fst (crun (cinit [(40000, 50)] 65535 50 16384) rp_ops).

Example ex_reset_resume_repause :
  snd (crun (cinit [(40000, 50)] 65535 50 16384) rp_ops) = [mkChunk 0 0 50] /\
  tpaused rp_c = true /\ wready (core rp_c) = false /\ hq rp_c = false /\
  snd (cfifo None rp_c) = [] /\
  map s_pc (senders (core (fst (cfifo None rp_c)))) = [WaitWrite] /\
  (* and after a real resume the backlog goes out *)
  snd (cfifo None (fst (cstep (fst (cfifo None rp_c)) (Op Resume))))
    = [mkChunk 0 50 1000].
Proof. vm_compute. repeat split; reflexivity. Qed.

(* with nothing queued the transport has nothing to write in resume_writing and cannot re-pause *)
Example ex_resume_p_without_queue :
  let c := fst (crun (cinit [(40000, 50)] 65535 50 16384) [Op Pause; ResumeP]) in
  tpaused c = false /\ wready (core c) = true.
Proof. vm_compute. auto. Qed.
