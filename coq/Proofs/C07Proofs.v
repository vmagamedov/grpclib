(* Proofs for Props/C07.v (model: Model/FlowSend.v).  Safety, order and progress rest on the invariant
   [Inv], on [run_spec] (what one loop iteration does under it) and on [peer_spec] (what a peer
   action does).  That the FIFO run ends quiescent adds [RQW] (the queues hold whoever can run) and
   the measure [phi]; the connection layer adds [WT] (write_ready mirrors the transport), which rests
   on [wready_step] (what any op does to write_ready, no invariant needed). *)
From Coq Require Import String ZArith List Bool Lia ZifyBool PeanoNat.
From GV Require Import Lib.Str Gen.FactsC07 Model.FlowSend.
Import ListNotations.
Open Scope Z_scope.

Lemma nth_error_upd {A} (l : list A) i j x y :
  nth_error l i = Some x ->
  nth_error (upd l i y) j = if Nat.eqb j i then Some y else nth_error l j.
Proof.
  revert i j; induction l as [|a l IH]; intros [|i] [|j] E; cbn in *; try discriminate; eauto.
Qed.

Lemma nth_error_upd_none {A} (l : list A) i y :
  nth_error l i = None -> upd l i y = l.
Proof.
  revert i; induction l as [|a l IH]; intros [|i] H; cbn in *; try discriminate; auto.
  f_equal; auto.
Qed.

Lemma length_upd {A} (l : list A) i y : length (upd l i y) = length l.
Proof. revert i; induction l as [|a l IH]; intros [|i]; cbn; auto. Qed.

Lemma Forall_upd {A} (P : A -> Prop) l i y :
  Forall P l -> P y -> Forall P (upd l i y).
Proof.
  intros H Hy; revert i; induction H as [|a l Ha Hl IH]; intros [|i]; cbn; auto.
Qed.

Lemma Forall2_map_r {A} (R : A -> A -> Prop) f l :
  (forall a, R a (f a)) -> Forall2 R l (map f l).
Proof. induction l; cbn; auto. Qed.

Lemma Forall2_diag {A} (R : A -> A -> Prop) l : (forall a, R a a) -> Forall2 R l l.
Proof. induction l; auto. Qed.

Lemma Forall2_upd {A} (R : A -> A -> Prop) l i x y :
  (forall a, R a a) -> nth_error l i = Some x -> R x y -> Forall2 R l (upd l i y).
Proof.
  intros HR; revert i; induction l as [|a l IH]; intros [|i] E Hy; cbn in *; try discriminate.
  - injection E as ->. auto using Forall2_diag.
  - eauto.
Qed.

Lemma Forall2_nth_error {A} (R : A -> A -> Prop) l l' i x :
  Forall2 R l l' -> nth_error l i = Some x -> exists x', nth_error l' i = Some x' /\ R x x'.
Proof.
  intros H; revert i; induction H as [|a a' l l' Ha Hl IH]; intros [|i] E; cbn in *;
    try discriminate; eauto.
  injection E as ->. eauto.
Qed.

(* [run] and [crun] are both [exec] *)

Section Runs.
  Context {St Op Ch : Type} (step : St -> Op -> St * list Ch).

  Fixpoint exec (s : St) (ops : list Op) : St * list Ch :=
    match ops with
    | [] => (s, [])
    | o :: r => let (s1, c1) := step s o in
                let (s2, c2) := exec s1 r in (s2, c1 ++ c2)
    end.

  Lemma exec_cons s o r :
    exec s (o :: r) =
    (fst (exec (fst (step s o)) r), snd (step s o) ++ snd (exec (fst (step s o)) r)).
  Proof. cbn. destruct (step s o) as [s1 c1]; cbn. now destruct (exec s1 r). Qed.

  Lemma exec_app s l1 l2 :
    exec s (l1 ++ l2) =
    (fst (exec (fst (exec s l1)) l2), snd (exec s l1) ++ snd (exec (fst (exec s l1)) l2)).
  Proof.
    revert s; induction l1 as [|o r IH]; intros s.
    - cbn. now destruct (exec s l2).
    - rewrite <- app_comm_cons, !exec_cons, IH. cbn. now rewrite app_assoc.
  Qed.

  (* an invariant of the steps that occur *)
  Lemma exec_inv (P : St -> Prop) ops :
    (forall s o, In o ops -> P s -> P (fst (step s o))) -> forall s, P s -> P (fst (exec s ops)).
  Proof.
    induction ops as [|o r IH]; intros H s Hs; [exact Hs|].
    rewrite exec_cons. cbn [fst]. apply IH; [intros s1 o1 H1; apply H; now right|apply H; [now left|exact Hs]].
  Qed.
End Runs.

Lemma run_exec : run = exec step.
Proof. reflexivity. Qed.

Lemma crun_exec : crun = exec cstep.
Proof. reflexivity. Qed.

(* what holds of every sender in every reachable state; cw = connection window, wr = write_ready *)
Definition sok (cw : Z) (wr : bool) (x : sender) : Prop :=
  0 <= s_pos x <= s_len x /\
  (s_pc x = WaitWindow -> s_wu x = false /\ Z.min cw (s_win x) <= 0) /\
  (s_pc x = WaitWrite -> wr = false) /\
  (s_pc x = Done -> s_pos x = s_len x) /\
  s_pc x <> Failed /\
  (s_pc x <> Done -> s_pos x < s_len x \/ (s_pos x = 0 /\ s_len x = 0)).

Definition Inv (s : state) : Prop :=
  1 <= mfs s /\ Forall (sok (cwin s) (wready s)) (senders s).

(* the same, by program counter *)
Lemma sok_pc cw wr x :
  sok cw wr x <->
  0 <= s_pos x <= s_len x /\
  match s_pc x with
  | Done => s_pos x = s_len x
  | Failed => False
  | p => (s_pos x < s_len x \/ (s_pos x = 0 /\ s_len x = 0)) /\
         match p with
         | WaitWrite => wr = false
         | WaitWindow => s_wu x = false /\ Z.min cw (s_win x) <= 0
         | _ => True
         end
  end.
Proof.
  unfold sok. destruct (s_pc x); intuition congruence.
Qed.

Lemma Inv_sender s x : Inv s -> In x (senders s) -> sok (cwin s) (wready s) x.
Proof. intros [_ Hs]. now apply Forall_forall. Qed.

Lemma sok_mono cw cw' wr x : sok cw wr x -> cw' <= cw -> sok cw' wr x.
Proof. rewrite !sok_pc. destruct (s_pc x); lia. Qed.

Lemma add_win_0 x : add_win 0 x = x.
Proof. destruct x; unfold add_win; cbn. f_equal. lia. Qed.

(* WINDOW_UPDATE on stream 0 acts on the senders like SETTINGS with an unchanged initial window *)
Lemma map_wu_set_0 l : map wu_set l = map (fun x => wu_set (add_win 0 x)) l.
Proof. apply map_ext. intros x. now rewrite add_win_0. Qed.

(* a window update of any size, under any new connection window, suspends nobody *)
Lemma sok_wu_set cw cw' wr d x : sok cw wr x -> sok cw' wr (wu_set (add_win d x)).
Proof.
  rewrite !sok_pc. destruct x as [p pos len win [|]]; unfold wu_set; destruct p; cbn; lia.
Qed.

Lemma Inv_break s : Inv s -> Inv (break s).
Proof. auto. Qed.

Definition sent (x : sender) (c : Z) : sender :=
  mkSender (if s_pos x + c =? s_len x then Done else Top) (s_pos x + c) (s_len x) (s_win x - c) (s_wu x).

(* The branches of [do_run], with the state each leads to written out.  The invariant excludes
   the branch to [Failed]: the chunk is cut to the window and to the frame size. *)
Inductive run_to (s : state) (i : nat) : state -> list chunk -> Prop :=
| rt_broken : broken s = true -> run_to s i s []
| rt_idle :
    (forall x, nth_error (senders s) i = Some x -> ready_pc (s_pc x) = false) ->
    run_to s i (drop_rq s i) []
| rt_go x :
    nth_error (senders s) i = Some x -> s_pc x = Top -> wready s = true ->
    run_to s i (set_sender s i (with_pc x CheckWindow) (rq s)) []
| rt_block x :
    nth_error (senders s) i = Some x -> s_pc x = Top -> wready s = false ->
    run_to s i (mkState (upd (senders s) i (with_pc x WaitWrite)) (cwin s) (iws s) (mfs s)
                        (wready s) (wwait s ++ [i]) (remove_nat i (rq s)) false) []
| rt_starve x :
    nth_error (senders s) i = Some x -> s_pc x = CheckWindow -> local_window s x <= 0 ->
    run_to s i (set_sender s i (mkSender WaitWindow (s_pos x) (s_len x) (s_win x) false)
                           (remove_nat i (rq s))) []
| rt_send x c :
    nth_error (senders s) i = Some x -> s_pc x = CheckWindow -> 0 < local_window s x ->
    c = Z.min (Z.min (local_window s x) (mfs s)) (s_len x - s_pos x) ->
    0 <= c -> (c = 0 -> s_len x = 0) ->
    run_to s i (mkState (upd (senders s) i (sent x c)) (cwin s - c) (iws s) (mfs s) (wready s)
                        (wwait s) (if s_pos x + c =? s_len x then remove_nat i (rq s) else rq s)
                        false)
           [mkChunk i (s_pos x) c].

Lemma run_spec s i s' out : Inv s -> step s (Run i) = (s', out) -> run_to s i s' out.
Proof.
  destruct s as [l cw iw mf wr ww q b]. intros HI. pose proof HI as [Hm _]. unfold step, do_run; cbn in *.
  destruct b; [intros [= <- <-]; now apply rt_broken|].
  destruct (nth_error l i) as [x|] eqn:Ex; [|intros [= <- <-]; apply rt_idle; cbn; congruence].
  pose proof (Inv_sender _ x HI (nth_error_In _ _ Ex)) as Hx. apply sok_pc in Hx.
  destruct (s_pc x) eqn:Hp;
    try (intros [= <- <-]; apply rt_idle; cbn; intros y Ey; rewrite Ex in Ey;
         injection Ey as <-; now rewrite Hp).
  - destruct wr; intros [= <- <-]; [now apply rt_go|now apply rt_block].
  - destruct (Z.min cw (s_win x) <=? 0) eqn:Wz.
    + intros [= <- <-]. apply rt_starve; auto. unfold local_window; cbn; lia.
    + set (n := Z.min (Z.min (Z.min cw (s_win x)) mf) (s_len x - s_pos x)).
      assert (bio_read n (s_len x - s_pos x) = n) as ->
        by (unfold bio_read; destruct (n <? 0) eqn:?; lia).
      destruct (_ || _) eqn:Hf; [exfalso; lia|]. intros [= <- <-].
      refine (rt_send _ _ x n _ _ _ _ _ _); auto; unfold local_window; cbn; lia.
Qed.

Lemma Inv_step s o : Inv s -> Inv (fst (step s o)).
Proof.
  intros HI. pose proof HI as [Hm Hs].
  destruct o as [i k|k|v|m| | |i]; [unfold step; (destruct (broken s); [exact HI|]); cbn [fst] ..|].
  - (* WinStream *)
    unfold do_win_stream. destruct (nth_error (senders s) i) as [x|] eqn:Ex; [|exact HI].
    destruct (_ || _ || _); [exact HI|]. split; cbn; auto.
    apply Forall_upd; auto. eapply sok_wu_set, (Inv_sender s x HI), nth_error_In, Ex.
  - (* WinConn *)
    unfold do_win_conn. destruct (_ || _ || _); [exact HI|]. split; cbn; auto.
    rewrite map_wu_set_0. apply Forall_map. eapply Forall_impl; [|exact Hs]. intros x Hx. eapply sok_wu_set, Hx.
  - (* SetInitWin *)
    unfold do_init_win. destruct (_ || _ || _); [exact HI|]. split; cbn; auto.
    apply Forall_map. eapply Forall_impl; [|exact Hs]. intros x Hx. eapply sok_wu_set, Hx.
  - (* SetMaxFrame *)
    unfold do_max_frame, min_frame. destruct (_ || _) eqn:E; [exact HI|]. split; cbn; auto. lia.
  - (* Pause *)
    split; cbn; auto. eapply Forall_impl; [|exact Hs]. intros x. rewrite !sok_pc. destruct (s_pc x); lia.
  - (* Resume *)
    unfold do_resume. destruct (wready s) eqn:W; [exact HI|]. split; cbn; auto.
    apply Forall_map. eapply Forall_impl; [|exact Hs]. intros x. rewrite !sok_pc.
    destruct x as [[] pos len win wu]; cbn; lia.
  - (* Run: the other senders see at most a smaller connection window; the one that ran: by its new pc *)
    destruct (step s (Run i)) as [s' out] eqn:Es.
    destruct (run_spec _ _ _ _ HI Es) as [ | |x Ex Hp W|x Ex Hp W|x Ex Hp W|x c Ex Hp W Hc Hc0 Hz];
      try exact HI; (split; [exact Hm|]); cbn;
      pose proof (Inv_sender s x HI (nth_error_In _ _ Ex)) as Hx; apply sok_pc in Hx; rewrite Hp in Hx;
      unfold local_window in *;
      (apply Forall_upd;
       [eapply Forall_impl; [|exact Hs]; intros y Hy; apply (sok_mono (cwin s)); [exact Hy|lia]
       |apply sok_pc; cbn; try lia]).
    destruct (_ =? _) eqn:Hfin; lia.
Qed.

Definition wf_cfg (cfg : list (Z * Z)) (mf : Z) : Prop :=
  1 <= mf /\ Forall (fun lw => 0 <= fst lw) cfg.

Lemma Inv_init cfg cw iw mf : wf_cfg cfg mf -> Inv (init cfg cw iw mf).
Proof.
  intros [Hm Hc]. split; cbn; auto.
  apply Forall_map. eapply Forall_impl; [|exact Hc]. intros [l w] H. apply sok_pc; cbn in *. lia.
Qed.

Lemma Inv_run s ops : Inv s -> Inv (fst (run s ops)).
Proof. exact (exec_inv step Inv ops (fun s o _ => Inv_step s o) s). Qed.

(* further invariants are proved for states that satisfy [Inv] *)
Lemma run_inv (P : state -> Prop) ops :
  (forall s o, In o ops -> Inv s -> P s -> P (fst (step s o))) -> forall s, Inv s -> P s -> P (fst (run s ops)).
Proof.
  intros H s HI Hs. refine (proj2 (exec_inv step (fun s => Inv s /\ P s) ops _ s (conj HI Hs))).
  intros s1 o Ho [H1 H2]. auto using Inv_step.
Qed.

Lemma run_snoc s ops o :
  run s (ops ++ [o]) = (fst (step (fst (run s ops)) o), snd (run s ops) ++ snd (step (fst (run s ops)) o)).
Proof.
  rewrite run_exec, exec_app, exec_cons. cbn. now rewrite app_nil_r.
Qed.

Lemma run_one s o : run s [o] = step s o.
Proof. cbn. destruct (step s o). now rewrite app_nil_r. Qed.

(* the states Props/C07.v speaks of *)
Definition reachable (cfg : list (Z * Z)) (cw iw mf : Z) (s : state) : Prop :=
  wf_cfg cfg mf /\ exists ops, s = fst (run (init cfg cw iw mf) ops).

Lemma reachable_Inv cfg cw iw mf s : reachable cfg cw iw mf s -> Inv s.
Proof. intros [W [ops ->]]. apply Inv_run, Inv_init; auto. Qed.

Lemma reachable_step cfg cw iw mf s o :
  reachable cfg cw iw mf s -> reachable cfg cw iw mf (fst (step s o)).
Proof.
  intros [W [ops ->]]. split; auto. exists (ops ++ [o]). now rewrite run_snoc.
Qed.

Lemma reachable_run cfg cw iw mf s ops :
  reachable cfg cw iw mf s -> reachable cfg cw iw mf (fst (run s ops)).
Proof.
  intros [W [ops0 ->]]. split; auto. exists (ops0 ++ ops). now rewrite run_exec, exec_app.
Qed.

(* what a peer action may do to a sender: wake it, never touch its position, length or completion *)
Definition peer_rel (x x' : sender) : Prop :=
  s_pos x' = s_pos x /\ s_len x' = s_len x /\
  (s_pc x' = s_pc x \/ (s_pc x = WaitWindow /\ s_pc x' = Top) \/
   (s_pc x = WaitWrite /\ s_pc x' = CheckWindow)).

Definition is_run (o : op) : bool := match o with Run _ => true | _ => false end.

Lemma peer_rel_refl x : peer_rel x x.
Proof. unfold peer_rel; auto. Qed.

Lemma peer_rel_wu d x : peer_rel x (wu_set (add_win d x)).
Proof.
  destruct x as [p pos len win wu]; unfold peer_rel, wu_set, add_win; cbn.
  destruct wu; cbn; auto. destruct p; cbn; tauto.
Qed.

Lemma peer_spec s o :
  is_run o = false ->
  snd (step s o) = [] /\ Forall2 peer_rel (senders s) (senders (fst (step s o))) /\
  cwin s <= cwin (fst (step s o)).
Proof.
  intros Ho.
  assert (Same : forall s', senders s' = senders s -> cwin s' = cwin s ->
                 @nil chunk = [] /\ Forall2 peer_rel (senders s) (senders s') /\ cwin s <= cwin s').
  { intros s' -> ->. repeat split; [apply Forall2_diag, peer_rel_refl|lia]. }
  unfold step. destruct (broken s); [now apply Same|].
  destruct o as [i k|k|v|m| | |i]; try discriminate; cbn [fst snd].
  - (* WinStream *)
    unfold do_win_stream. destruct (nth_error (senders s) i) as [x|] eqn:Ex; [|now apply Same].
    destruct (_ || _ || _); [now apply Same|]. repeat split; cbn; [|lia].
    eapply Forall2_upd; eauto using peer_rel_refl, peer_rel_wu.
  - (* WinConn *)
    unfold do_win_conn. destruct (_ || _ || _) eqn:G; [now apply Same|]. repeat split; cbn; [|lia].
    rewrite map_wu_set_0. apply Forall2_map_r. intros x. apply peer_rel_wu.
  - (* SetInitWin *)
    unfold do_init_win. destruct (_ || _ || _); [now apply Same|]. repeat split; cbn; [|lia].
    apply Forall2_map_r. intros x. apply peer_rel_wu.
  - (* SetMaxFrame *) unfold do_max_frame. destruct (_ || _); now apply Same.
  - (* Pause *) now apply Same.
  - (* Resume *)
    unfold do_resume. destruct (wready s); [now apply Same|]. repeat split; cbn; [|lia].
    apply Forall2_map_r. intros [[] pos len win wu]; unfold peer_rel; cbn; tauto.
Qed.

Lemma peer_step s o : is_run o = false -> step s o = (fst (step s o), []).
Proof. intros Ho. rewrite <- (proj1 (peer_spec s o Ho)). apply surjective_pairing. Qed.

(* Without the invariant: a Run touches no sender but its own, and what it emits carries its index *)
Lemma run_frame s i :
  (forall ch, In ch (snd (step s (Run i))) -> c_sid ch = i) /\
  (senders (fst (step s (Run i))) = senders s \/
   exists x y, nth_error (senders s) i = Some x /\
               senders (fst (step s (Run i))) = upd (senders s) i y).
Proof.
  unfold step. destruct (broken s); [split; [intros ch []|auto]|]. unfold do_run.
  destruct (nth_error (senders s) i) as [x|] eqn:Ex; [|split; [intros ch []|auto]].
  destruct (s_pc x); try (split; [intros ch []|auto]; fail).
  - destruct (wready s); (split; [intros ch []|cbn; eauto]).
  - destruct (_ <=? 0); [split; [intros ch []|cbn; eauto]|].
    destruct (_ || _); (split; [|cbn; eauto]); [intros ch []|now intros ch [<-|[]]].
Qed.

Lemma run_out_sid s i ch : In ch (snd (step s (Run i))) -> c_sid ch = i.
Proof. apply run_frame. Qed.

Lemma run_other s i j x :
  i <> j -> nth_error (senders s) j = Some x ->
  nth_error (senders (fst (step s (Run i)))) j = Some x.
Proof.
  intros N E. destruct (run_frame s i) as [_ [->|(y & z & Ey & ->)]]; auto.
  rewrite (nth_error_upd _ _ _ _ _ Ey). now destruct (Nat.eqb_spec j i); [subst|].
Qed.

Lemma length_senders_step s o : length (senders (fst (step s o))) = length (senders s).
Proof.
  destruct (is_run o) eqn:Ho.
  - destruct o as [| | | | | |i]; try discriminate.
    destruct (run_frame s i) as [_ [->|(y & z & _ & ->)]]; auto using length_upd.
  - destruct (peer_spec s o Ho) as (_ & H & _). induction H; cbn; auto.
Qed.

Definition chunks_of (i : nat) (tr : list chunk) : list (Z * Z) :=
  map (fun c => (c_off c, c_len c)) (filter (fun c => Nat.eqb (c_sid c) i) tr).

(* l is a list of (offset, length) pieces that tile [a, b) from left to right *)
Fixpoint contig (a : Z) (l : list (Z * Z)) (b : Z) : Prop :=
  match l with
  | [] => a = b
  | (o, c) :: r => o = a /\ 0 <= c /\ contig (a + c) r b
  end.

Lemma contig_app a l1 b l2 c : contig a l1 b -> contig b l2 c -> contig a (l1 ++ l2) c.
Proof.
  revert a; induction l1 as [|[o n] r IH]; intros a; cbn.
  - now intros ->.
  - intros (-> & Hn & H) H2. repeat split; auto.
Qed.

Lemma chunks_of_app i l1 l2 : chunks_of i (l1 ++ l2) = chunks_of i l1 ++ chunks_of i l2.
Proof. unfold chunks_of. now rewrite filter_app, map_app. Qed.

Lemma step_sender s o j x :
  Inv s -> nth_error (senders s) j = Some x ->
  exists x', nth_error (senders (fst (step s o))) j = Some x' /\ s_len x' = s_len x /\
             contig (s_pos x) (chunks_of j (snd (step s o))) (s_pos x').
Proof.
  intros HI E. destruct (is_run o) eqn:Ho.
  - destruct o as [| | | | | |i]; try discriminate.
    destruct (step s (Run i)) as [s' out] eqn:Es. cbn [fst snd].
    destruct (run_spec _ _ _ _ HI Es) as [ | |y Ey|y Ey|y Ey|y c Ey _ _ _ Hc _];
      try (exists x; cbn; auto; fail);
      unfold chunks_of; cbn; rewrite (nth_error_upd _ _ _ _ _ Ey), ?(Nat.eqb_sym i j);
      (destruct (Nat.eqb_spec j i) as [->|N]; [rewrite E in Ey; injection Ey as <-|exists x; cbn; auto]);
      eexists; cbn; auto.
  - destruct (peer_spec s o Ho) as (-> & H & _).
    destruct (Forall2_nth_error _ _ _ _ _ H E) as (x' & E' & P & L & _). exists x'; cbn; auto.
Qed.

(* The general form of C07_chunks_in_order: from any state satisfying the invariant *)
Lemma run_sender s ops j x x' :
  Inv s -> nth_error (senders s) j = Some x ->
  nth_error (senders (fst (run s ops))) j = Some x' ->
  s_len x' = s_len x /\ contig (s_pos x) (chunks_of j (snd (run s ops))) (s_pos x') /\
  s_pos x' <= s_len x' /\ (s_pc x' = Done -> s_pos x' = s_len x').
Proof.
  rewrite run_exec. revert s x; induction ops as [|o r IH]; intros s x HI E E'.
  - cbn in *. rewrite E in E'; injection E' as <-.
    pose proof (Inv_sender s x HI (nth_error_In _ _ E)) as Hx%sok_pc.
    repeat split; auto; [lia|intros Hd; rewrite Hd in Hx; lia].
  - rewrite exec_cons in *; cbn [fst snd] in *.
    destruct (step_sender s o j x HI E) as (x1 & E1 & L1 & C1).
    destruct (IH _ x1 (Inv_step s o HI) E1 E') as (L2 & C2 & H).
    rewrite chunks_of_app. repeat split; eauto using contig_app; try congruence; apply H.
Qed.

Definition slice {A} (data : list A) (off len : Z) : list A :=
  firstn (Z.to_nat len) (skipn (Z.to_nat off) data).

Lemma firstn_plus {A} (l : list A) n m : firstn (n + m) l = firstn n l ++ firstn m (skipn n l).
Proof.
  revert l; induction n as [|n IH]; intros l; cbn; auto.
  destruct l; cbn; [now rewrite firstn_nil|]. now rewrite IH.
Qed.

Lemma skipn_plus {A} (l : list A) n m : skipn m (skipn n l) = skipn (n + m) l.
Proof.
  revert l; induction n as [|n IH]; intros l; cbn; auto.
  destruct l; cbn; auto. now rewrite skipn_nil.
Qed.

Lemma contig_bytes {A} (data : list A) l a b :
  0 <= a -> contig a l b ->
  a <= b /\ concat (map (fun oc => slice data (fst oc) (snd oc)) l) = slice data a (b - a).
Proof.
  revert a; induction l as [|[o c] r IH]; intros a Ha; cbn.
  - intros <-. split; [lia|]. unfold slice. now rewrite Z.sub_diag.
  - intros (-> & Hc & H). destruct (IH (a + c) ltac:(lia) H) as [Hle ->]. split; [lia|].
    unfold slice.
    replace (Z.to_nat (b - a)) with (Z.to_nat c + Z.to_nat (b - (a + c)))%nat by lia.
    rewrite firstn_plus, skipn_plus. do 3 f_equal. lia.
Qed.

(* what the peer has received of a message whose chunks tile [0, b) *)
Lemma received_prefix {A} (data : list A) l b :
  contig 0 l b ->
  let received := concat (map (fun oc => slice data (fst oc) (snd oc)) l) in
  received = firstn (Z.to_nat b) data /\ (b = Z.of_nat (length data) -> received = data).
Proof.
  intros C received. destruct (contig_bytes data l 0 b ltac:(lia) C) as [_ R].
  assert (E : received = firstn (Z.to_nat b) data)
    by (unfold received; rewrite R; unfold slice; cbn; now rewrite Z.sub_0_r).
  split; [exact E|]. intros ->. rewrite E, Nat2Z.id. apply firstn_all.
Qed.

Lemma safety cfg cw iw mf s o ch :
  reachable cfg cw iw mf s -> In ch (snd (step s o)) ->
  exists x, o = Run (c_sid ch) /\ nth_error (senders s) (c_sid ch) = Some x /\
            s_pc x = CheckWindow /\
            c_off ch = s_pos x /\ 0 <= c_len ch /\
            c_len ch <= s_win x /\ c_len ch <= cwin s /\ c_len ch <= mfs s /\
            c_off ch + c_len ch <= s_len x /\ (c_len ch = 0 -> s_len x = 0).
Proof.
  intros HI%reachable_Inv Hin.
  destruct (is_run o) eqn:Ho; [|rewrite (proj1 (peer_spec s o Ho)) in Hin; destruct Hin].
  destruct o as [| | | | | |i]; try discriminate.
  destruct (step s (Run i)) as [s' out] eqn:Es.
  destruct (run_spec _ _ _ _ HI Es) as [ | | | | |x c Ex Hp W Hc Hc0 Hz]; try contradiction.
  destruct Hin as [<-|[]]. exists x. unfold local_window in *. cbn. repeat split; auto; lia.
Qed.

Lemma never_failed s : Inv s -> forall x, In x (senders s) -> s_pc x <> Failed.
Proof.
  intros HI x Hx. apply (Inv_sender s x HI Hx).
Qed.

Lemma run_cwin s i :
  Inv s -> cwin (fst (step s (Run i))) = cwin s \/ 0 <= cwin (fst (step s (Run i))) < cwin s.
Proof.
  intros HI. destruct (step s (Run i)) as [s' out] eqn:Es.
  destruct (run_spec _ _ _ _ HI Es); unfold local_window in *; cbn; lia.
Qed.

(* a send lowers a window only within its non-negative part *)
Lemma run_windows s i j x x' :
  Inv s -> nth_error (senders s) j = Some x ->
  nth_error (senders (fst (step s (Run i)))) j = Some x' ->
  (s_win x' = s_win x \/ 0 <= s_win x' < s_win x) /\
  (cwin (fst (step s (Run i))) = cwin s \/ 0 <= cwin (fst (step s (Run i))) < cwin s).
Proof.
  intros HI E E'. split; [|now apply run_cwin].
  destruct (step s (Run i)) as [s' out] eqn:Es.
  destruct (run_spec _ _ _ _ HI Es) as [ | |y Ey|y Ey|y Ey|y c Ey _ W Hc Hc0 _]; cbn in E';
    (* where sender i was replaced, j is i or another *)
    try (rewrite (nth_error_upd _ _ _ _ _ Ey) in E'; destruct (Nat.eqb_spec j i) as [->|N];
         [rewrite E in Ey; injection Ey as <-|]);
    try rewrite E in E'; injection E' as <-; cbn; auto.
  (* what is left is the sender that sent *)
  unfold local_window in *. lia.
Qed.

Lemma cwin_nonneg_step s o : Inv s -> 0 <= cwin s -> 0 <= cwin (fst (step s o)).
Proof.
  intros HI H. destruct (is_run o) eqn:Ho.
  - destruct o; try discriminate. destruct (run_cwin s i HI); lia.
  - destruct (peer_spec s o Ho) as (_ & _ & Hc). lia.
Qed.

Lemma no_lost_wakeup s x :
  Inv s -> In x (senders s) ->
  (s_pc x = WaitWindow -> local_window s x <= 0) /\
  (s_pc x = WaitWrite -> wready s = false).
Proof.
  intros HI Hx%(Inv_sender s x HI)%sok_pc. unfold local_window.
  split; intros Hp; rewrite Hp in Hx; apply Hx.
Qed.

Lemma quiescent_spec s :
  quiescent s = true <-> forall x, In x (senders s) -> ready_pc (s_pc x) = false.
Proof.
  unfold quiescent. rewrite forallb_forall. split; intros H x Hx; specialize (H x Hx).
  - now apply negb_true_iff in H.
  - now rewrite H.
Qed.

Lemma progress s x :
  Inv s -> quiescent s = true -> In x (senders s) -> s_pc x <> Done ->
  (s_pc x = WaitWrite /\ wready s = false) \/ (s_pc x = WaitWindow /\ local_window s x <= 0).
Proof.
  intros HI Hq Hx Hd. pose proof (no_lost_wakeup s x HI Hx) as [A B].
  rewrite quiescent_spec in Hq. specialize (Hq x Hx).
  pose proof (never_failed s HI x Hx).
  destruct (s_pc x); cbn in *; try discriminate; try congruence; auto.
Qed.

Lemma credit_makes_ready s x :
  Inv s -> In x (senders s) -> s_pc x <> Done ->
  wready s = true -> 0 < local_window s x -> ready_pc (s_pc x) = true.
Proof.
  intros HI Hx Hd Hw Hc. pose proof (no_lost_wakeup s x HI Hx) as [A B].
  pose proof (never_failed s HI x Hx).
  destruct (s_pc x); cbn in *; auto; try congruence.
  - specialize (B eq_refl). congruence.
  - specialize (A eq_refl). lia.
Qed.

(* the measure: bytes still to send, +1 per unfinished sender so that an empty message counts *)
Definition mu (x : sender) : Z :=
  match s_pc x with Done => 0 | _ => s_len x - s_pos x + 1 end.
Fixpoint sumf (f : sender -> Z) (l : list sender) : Z :=
  match l with [] => 0 | x :: r => f x + sumf f r end.
Definition total (s : state) : Z := sumf mu (senders s).

Lemma sumf_upd f l i x y :
  nth_error l i = Some x -> sumf f (upd l i y) = sumf f l - f x + f y.
Proof.
  revert i; induction l as [|a l IH]; intros [|i] E; cbn in *; try discriminate.
  - inversion E; subst. lia.
  - rewrite (IH _ E). lia.
Qed.

Lemma sumf_Forall2 (R : sender -> sender -> Prop) f l l' :
  (forall x x', R x x' -> f x' = f x) -> Forall2 R l l' -> sumf f l' = sumf f l.
Proof. intros H; induction 1 as [|x x' l l' Hx _ IH]; cbn; [auto|]. now rewrite (H _ _ Hx), IH. Qed.

Lemma sumf_nonneg f l : (forall x, In x l -> 0 <= f x) -> 0 <= sumf f l.
Proof.
  induction l as [|a l IH]; intros H; cbn; [lia|].
  pose proof (H a (or_introl eq_refl)). specialize (IH (fun x Hx => H x (or_intror Hx))). lia.
Qed.

Lemma total_nonneg s : Inv s -> 0 <= total s.
Proof.
  intros HI. apply sumf_nonneg.
  intros x [A _]%(Inv_sender s x HI). unfold mu. destruct (s_pc x); lia.
Qed.

Lemma total_peer s o : is_run o = false -> total (fst (step s o)) = total s.
Proof.
  intros Ho. destruct (peer_spec s o Ho) as (_ & H & _). apply (sumf_Forall2 peer_rel); [|exact H].
  intros x x' (P & L & [E|[[E E']|[E E']]]); unfold mu; rewrite P, L, ?E, ?E'; auto.
Qed.

Lemma total_run s i s' out :
  Inv s -> step s (Run i) = (s', out) ->
  total s' <= total s /\ (out <> [] -> total s' < total s).
Proof.
  intros HI Es.
  destruct (run_spec _ _ _ _ HI Es) as [ | |x Ex Hp|x Ex Hp|x Ex Hp|x c Ex Hp _ _ Hc Hz];
    unfold total; cbn; try (split; [lia|congruence]);
    pose proof (Inv_sender s x HI (nth_error_In _ _ Ex)) as [A _];
    rewrite (sumf_upd _ _ _ _ _ Ex); unfold mu, sent; cbn; rewrite Hp;
    try (split; [lia|congruence]).
  destruct (_ =? _) eqn:Hfin; (split; [|intros _]); lia.
Qed.

Lemma total_run_le s ops : Inv s -> total (fst (run s ops)) <= total s.
Proof.
  intros HI. apply (run_inv (fun s' => total s' <= total s)); [|exact HI|lia].
  intros s1 o _ H1 L1. destruct (is_run o) eqn:Ho.
  - destruct o as [| | | | | |i]; try discriminate. destruct (step s1 (Run i)) as [s' out] eqn:Es.
    destruct (total_run s1 i s' out H1 Es). cbn. lia.
  - now rewrite total_peer.
Qed.

(* sender i is unfinished, writing is resumed and i has credit *)
Definition granted (s : state) (i : nat) : Prop :=
  broken s = false /\ wready s = true /\
  exists x, nth_error (senders s) i = Some x /\ s_pc x <> Done /\ 0 < local_window s x.

Lemma granted_run s i j s' out :
  Inv s -> granted s i -> step s (Run j) = (s', out) -> out = [] -> granted s' i.
Proof.
  intros HI (Hb & Hw & x & Ex & Hd & Hc) Es Ho. unfold granted, local_window in *.
  destruct (run_spec _ _ _ _ HI Es) as [ | |y Ey Hp W|y Ey Hp W|y Ey Hp W|y c Ey];
    try congruence; cbn; repeat split; auto; [exists x; auto|..];
    rewrite (nth_error_upd _ _ _ _ _ Ey);
    (destruct (Nat.eqb_spec i j) as [->|N]; [rewrite Ex in Ey; injection Ey as <-|exists x; auto]).
  - exists (with_pc x CheckWindow). repeat split; auto. discriminate.
  - unfold local_window in W. lia.
Qed.

(* From a state where i is granted credit, ANY schedule that reaches quiescence has made some
   sender progress: either i itself, or a competitor that used the (connection) credit first. *)
Lemma round_progress i runs : forall s,
  Inv s -> granted s i -> forallb is_run runs = true ->
  quiescent (fst (run s runs)) = true -> total (fst (run s runs)) < total s.
Proof.
  rewrite run_exec. induction runs as [|o r IH]; intros s HI G Hr Hq.
  - exfalso. destruct G as (Hb & Hw & x & Ex & Hd & Hc). apply nth_error_In in Ex.
    rewrite quiescent_spec in Hq.
    pose proof (credit_makes_ready s x HI Ex Hd Hw Hc) as H. rewrite (Hq x Ex) in H. discriminate.
  - cbn in Hr. apply andb_prop in Hr as [Ho Hr]. destruct o as [| | | | | |j]; try discriminate.
    rewrite exec_cons in *; cbn [fst] in *.
    pose proof (Inv_step s (Run j) HI) as HI1. pose proof (total_run_le _ r HI1) as Hle.
    destruct (step s (Run j)) as [s1 out] eqn:Es; cbn [fst] in *.
    destruct (total_run s j s1 out HI Es) as [T1 T2]. destruct out.
    + specialize (IH s1 HI1 (granted_run _ _ _ _ _ HI G Es eq_refl) Hr Hq). lia.
    + specialize (T2 ltac:(discriminate)). rewrite run_exec in Hle. lia.
Qed.

(* n rounds, each: arbitrary ops, then a point where i is granted credit, then any schedule of the
   senders up to quiescence *)
Inductive rounds (i : nat) : nat -> state -> state -> Prop :=
| rounds_0 s : rounds i 0 s s
| rounds_S n s pre runs s3 :
    granted (fst (run s pre)) i ->
    forallb is_run runs = true ->
    quiescent (fst (run (fst (run s pre)) runs)) = true ->
    rounds i n (fst (run (fst (run s pre)) runs)) s3 ->
    rounds i (S n) s s3.

Lemma rounds_measure i n s s' :
  Inv s -> rounds i n s s' -> Inv s' /\ total s' + Z.of_nat n <= total s.
Proof.
  intros HI R; induction R as [s|n s pre runs s3 G Hr Hq R IH]; [split; [auto|lia]|].
  pose proof (Inv_run s pre HI) as HI1. pose proof (total_run_le s pre HI).
  pose proof (round_progress i runs _ HI1 G Hr Hq).
  destruct (IH (Inv_run _ runs HI1)). split; [auto|lia].
Qed.

Lemma rounds_bounded i n s s' : Inv s -> rounds i n s s' -> Z.of_nat n <= total s.
Proof.
  intros HI R. destruct (rounds_measure i n s s' HI R) as [HI' H].
  pose proof (total_nonneg s' HI'). lia.
Qed.

(* ample credit: everybody completes in one run to quiescence, whatever the schedule *)
Definition need (x : sender) : Z :=
  match s_pc x with Done => 0 | _ => Z.max 1 (s_len x - s_pos x) end.

Definition ample (s : state) : Prop :=
  broken s = false /\ wready s = true /\ sumf need (senders s) <= cwin s /\
  Forall (fun x => s_pc x <> Done -> need x <= s_win x) (senders s).

Lemma need_nonneg x : 0 <= need x.
Proof. unfold need; destruct (s_pc x); lia. Qed.

Lemma need_le_sum l x : In x l -> need x <= sumf need l.
Proof.
  induction l as [|a l IH]; intros []; cbn.
  - subst. pose proof (sumf_nonneg need l (fun y _ => need_nonneg y)). lia.
  - specialize (IH H). pose proof (need_nonneg a). lia.
Qed.

Lemma ample_ready s x :
  Inv s -> ample s -> In x (senders s) -> s_pc x <> Done ->
  ready_pc (s_pc x) = true /\ 0 < local_window s x.
Proof.
  intros HI (Hb & Hw & Hc & Hs) Hx Hd.
  rewrite Forall_forall in Hs. specialize (Hs x Hx Hd).
  pose proof (need_le_sum _ _ Hx).
  assert (1 <= need x) by (unfold need; destruct (s_pc x); try congruence; lia).
  assert (0 < local_window s x) by (unfold local_window; lia).
  split; auto. eapply credit_makes_ready; eauto.
Qed.

(* a send of c bytes lowers the sender's need by at least c; the two windows it lowers by c *)
Lemma need_sent x c : s_pc x <> Done -> c <= s_len x - s_pos x -> need (sent x c) + c <= need x.
Proof. unfold need, sent; cbn. destruct (s_pc x), (_ =? _) eqn:E; try congruence; lia. Qed.

Lemma ample_step s o : is_run o = true -> Inv s -> ample s -> ample (fst (step s o)).
Proof.
  intros Ho HI Ha. destruct o as [| | | | | |j]; try discriminate.
  pose proof Ha as (Hb & Hw & Hc & Hs).
  destruct (step s (Run j)) as [s1 out] eqn:Es. cbn [fst].
  (* ample excludes a broken connection and blocking on write_ready; a run of nothing changes nothing *)
  destruct (run_spec _ _ _ _ HI Es) as [ | |y Ey Hp W|y Ey Hp W|y Ey Hp W|y c Ey Hp W Hc0 Hc1 Hz];
    try congruence; [repeat split; auto|..];
    assert (Hd : s_pc y <> Done) by congruence;
    pose proof (proj1 (Forall_forall _ _) Hs y (nth_error_In _ _ Ey) Hd) as Hny.
  - (* on to CheckWindow *)
    repeat split; cbn; auto; [rewrite (sumf_upd _ _ _ _ _ Ey)|apply Forall_upd; [exact Hs|intros _]];
      unfold need in *; cbn; rewrite Hp in *; lia.
  - (* the sender that ran is unfinished, hence has credit: it cannot have starved *)
    destruct (ample_ready s y HI Ha (nth_error_In _ _ Ey) Hd) as [_ Hl]. lia.
  - (* a send *)
    assert (Hle : c <= s_len y - s_pos y) by (rewrite Hc0; apply Z.le_min_r).
    pose proof (need_sent y c Hd Hle).
    repeat split; cbn; auto; [rewrite (sumf_upd _ _ _ _ _ Ey)|apply Forall_upd; [exact Hs|intros _]]; cbn; lia.
Qed.

Lemma ample_completes s runs :
  Inv s -> ample s -> forallb is_run runs = true -> quiescent (fst (run s runs)) = true ->
  forall x, In x (senders (fst (run s runs))) -> s_pc x = Done.
Proof.
  intros HI Ha Hr Hq x Hx.
  pose proof (Inv_run s runs HI) as HI'. rewrite forallb_forall in Hr.
  pose proof (run_inv ample runs (fun s o Ho => ample_step s o (Hr o Ho)) s HI Ha) as Ha'.
  rewrite quiescent_spec in Hq. destruct (s_pc x) eqn:Hp; auto; exfalso;
    (assert (Hd : s_pc x <> Done) by congruence);
    destruct (ample_ready _ x HI' Ha' Hx Hd) as [Hr' _]; rewrite (Hq x Hx) in Hr'; discriminate.
Qed.

Lemma iter_until_inv {A} (fin : A -> bool) (f : A -> A) (P : A -> Prop) :
  (forall x, P x -> P (f x)) -> forall p x, P x -> P (iter_until fin f p x).
Proof.
  intros Hf. induction p as [q IH|q IH|]; intros x Hx; cbn; destruct (fin x); auto.
Qed.

Definition sched_op (o : op) : bool := match o with Run _ | Pause => true | _ => false end.

Definition fifo_ok (s0 : state) (x : fifo) : Prop :=
  run s0 (rev (f_sched x)) = (f_state x, rev (f_out x)) /\ forallb sched_op (f_sched x) = true.

Lemma fifo_step_ok s0 x : fifo_ok s0 x -> fifo_ok s0 (fifo_step x).
Proof.
  intros [Hr Hs]. unfold fifo_step. destruct (rq (f_state x)) as [|i q]; [split; auto|].
  destruct (step (f_state x) (Run i)) as [s1 out] eqn:Es.
  assert (H1 : run s0 (rev (Run i :: f_sched x)) = (s1, rev (rev out ++ f_out x))).
  { cbn [rev]. rewrite run_snoc, Hr; cbn. now rewrite Es, rev_app_distr, rev_involutive. }
  destruct out as [|ch out']; [|destruct (f_budget x) as [[|k]|]]; try (split; cbn; auto; fail).
  split; [|cbn; auto]. cbn [f_sched f_state f_out].
  change (rev (Pause :: Run i :: f_sched x)) with (rev (Run i :: f_sched x) ++ [Pause]).
  rewrite run_snoc, H1; cbn [fst snd].
  rewrite (proj1 (peer_spec s1 Pause eq_refl)). now rewrite app_nil_r.
Qed.

(* the FIFO run to quiescence used by the correspondence is one of the schedules *)
Lemma fifo_is_schedule budget s :
  exists ops, forallb sched_op ops = true /\ run s ops = fifo_result budget s.
Proof.
  unfold fifo_result, fifo_quiesce.
  pose proof (iter_until_inv fifo_fin fifo_step (fifo_ok s) (fifo_step_ok s)
                (Z.to_pos (fifo_fuel s)) (mkFifo s budget [] [])) as H.
  destruct H as [Hr Hs]; [split; reflexivity|].
  eexists; split; [|exact Hr]. now rewrite forallb_forall in *; intros o Ho; apply Hs, in_rev.
Qed.

(* Why that run ends quiescent: the ready queue holds every ready sender -- and the waiters of
   write_ready every sender in WaitWrite, which is what keeps this true across resume_writing. *)
Definition RQW (s : state) : Prop :=
  forall i x, nth_error (senders s) i = Some x ->
  (ready_pc (s_pc x) = true -> In i (rq s)) /\ (s_pc x = WaitWrite -> In i (wwait s)).

Lemma In_remove_nat i j l : In j (remove_nat i l) <-> In j l /\ j <> i.
Proof.
  unfold remove_nat. rewrite filter_In, negb_true_iff, Nat.eqb_neq. tauto.
Qed.

Lemma wu_woken_all_In l : forall k j x,
  nth_error l j = Some x -> s_wu x = false -> s_pc x = WaitWindow ->
  In (k + j)%nat (wu_woken_all l k).
Proof.
  induction l as [|a l IH]; intros k [|j] x E Hw Hp; cbn in *; try discriminate; apply in_or_app.
  - injection E as ->. left. unfold wu_woken. rewrite Hw, Hp, Nat.add_0_r. now left.
  - right. rewrite <- Nat.add_succ_comm. eauto.
Qed.

(* a window update makes ready only a sender that it wakes, and suspends nobody on write_ready *)
Lemma wu_set_pc d x :
  (ready_pc (s_pc (wu_set (add_win d x))) = true ->
   ready_pc (s_pc x) = true \/ (s_wu x = false /\ s_pc x = WaitWindow)) /\
  (s_pc (wu_set (add_win d x)) = WaitWrite -> s_pc x = WaitWrite).
Proof. destruct x as [[] pos len win []]; cbn; auto; split; auto; discriminate. Qed.

Lemma RQW_step s o : Inv s -> RQW s -> RQW (fst (step s o)).
Proof.
  intros HI HQ.
  (* a window update for every sender (WinConn, SetInitWin) queues exactly those it wakes *)
  assert (Wake : forall d cw iw,
    RQW (mkState (map (fun x => wu_set (add_win d x)) (senders s)) cw iw (mfs s)
                 (wready s) (wwait s) (rq s ++ wu_woken_all (senders s) 0) false)).
  { intros d cw iw j y E; cbn in E |- *. rewrite nth_error_map in E.
    destruct (nth_error (senders s) j) as [x|] eqn:Ex; [|discriminate]. injection E as <-.
    destruct (HQ _ _ Ex) as [Q1 Q2]. rewrite in_app_iff.
    split; intros H; apply wu_set_pc in H; [destruct H as [R|[R1 R2]]|]; auto.
    right. apply (wu_woken_all_In _ 0%nat j x); auto. }
  destruct o as [i k|k|v|m| | |i]; [unfold step; (destruct (broken s); [exact HQ|]); cbn [fst] ..|].
  - (* WinStream *)
    unfold do_win_stream. destruct (nth_error (senders s) i) as [x|] eqn:Ex; [|exact HQ].
    destruct (_ || _ || _); [exact HQ|]. intros j y E; cbn in E |- *.
    rewrite (nth_error_upd _ _ _ _ _ Ex), in_app_iff in *.
    destruct (Nat.eqb_spec j i) as [->|N]; [|destruct (HQ _ _ E); auto].
    injection E as <-. destruct (HQ _ _ Ex) as [Q1 Q2].
    split; intros H; apply wu_set_pc in H; [destruct H as [R|[R1 R2]]|]; auto.
    right. unfold wu_woken. rewrite R1, R2. now left.
  - (* WinConn *)
    unfold do_win_conn. destruct (_ || _ || _); [exact HQ|]. rewrite map_wu_set_0. apply Wake.
  - (* SetInitWin *)
    unfold do_init_win. destruct (_ || _ || _); [exact HQ|]. apply Wake.
  - (* SetMaxFrame *) unfold do_max_frame. destruct (_ || _); exact HQ.
  - (* Pause *) exact HQ.
  - (* Resume: the waiters of write_ready move to the ready queue *)
    unfold do_resume. destruct (wready s); [exact HQ|]. intros j y E; cbn in E |- *.
    rewrite nth_error_map in E. destruct (nth_error (senders s) j) as [x|] eqn:Ex; [|discriminate].
    injection E as <-. destruct (HQ _ _ Ex) as [Q1 Q2]. rewrite in_app_iff.
    destruct (s_pc x) eqn:Hp; cbn; rewrite ?Hp; auto; split; auto; discriminate.
  - (* Run *)
    destruct (step s (Run i)) as [s' out] eqn:Es.
    destruct (run_spec _ _ _ _ HI Es) as [ |Hi|x Ex Hp|x Ex Hp|x Ex Hp|x c Ex Hp];
      [exact HQ|..]; intros j y E; cbn in E |- *.
    { (* not ready: it only leaves the queue *)
      destruct (HQ _ _ E) as [Q1 Q2]. split; auto. intros Hy. apply In_remove_nat. split; auto.
      intros ->. rewrite (Hi _ E) in Hy. discriminate. }
    (* it ran: it leaves the queue only suspended or finished, and suspended on write_ready it is a waiter *)
    all: rewrite (nth_error_upd _ _ _ _ _ Ex) in E;
      (destruct (Nat.eqb_spec j i) as [->|N];
       [injection E as <-; destruct (HQ _ _ Ex) as [Q1 Q2]|destruct (HQ _ _ E) as [Q1 Q2]]);
      cbn; try destruct (_ =? _); rewrite ?In_remove_nat, ?in_app_iff; cbn; rewrite ?Hp in Q1;
      intuition (try discriminate; try congruence).
Qed.

Lemma RQW_init cfg cw iw mf : RQW (init cfg cw iw mf).
Proof.
  intros i x E; cbn in *. rewrite nth_error_map in E.
  destruct (nth_error cfg i) eqn:Ei; [|discriminate]. injection E as <-. cbn.
  split; [intros _|discriminate]. apply in_seq. split; [lia|]. apply nth_error_Some. congruence.
Qed.

Lemma reachable_RQW cfg cw iw mf s : reachable cfg cw iw mf s -> RQW s.
Proof.
  intros [W [ops ->]]. apply (run_inv _ _ (fun s o _ => RQW_step s o)); auto using Inv_init, RQW_init.
Qed.

(* iter_until reaches `fin` when a measure drops by one per step and the fuel exceeds it *)
Lemma iter_until_fin_id {A} (fin : A -> bool) (f : A -> A) p x :
  fin x = true -> iter_until fin f p x = x.
Proof. intros H. destruct p; cbn; now rewrite H. Qed.

Lemma iter_until_measure {A} (fin : A -> bool) (f : A -> A) (P : A -> Prop) (m : A -> Z) :
  (forall x, P x -> fin x = false -> P (f x) /\ m (f x) + 1 <= m x) ->
  forall p x, P x ->
    P (iter_until fin f p x) /\
    (fin (iter_until fin f p x) = true \/ m (iter_until fin f p x) + Zpos p <= m x).
Proof.
  intros H. induction p as [q IH|q IH|]; intros x Hx; cbn [iter_until];
    destruct (fin x) eqn:Fx; auto.
  - destruct (H x Hx Fx) as [P0 H0]. destruct (IH (f x) P0) as [P1 [F1|M1]].
    { rewrite (iter_until_fin_id fin f q _ F1). auto. }
    destruct (IH _ P1) as [P2 [F2|M2]]; auto. split; auto. right. lia.
  - destruct (IH x Hx) as [P1 [F1|M1]].
    { rewrite (iter_until_fin_id fin f q _ F1). auto. }
    destruct (IH _ P1) as [P2 [F2|M2]]; auto. split; auto. right. lia.
  - destruct (H x Hx Fx). auto.
Qed.

Definition phi (s : state) : Z := sumf sender_fuel (senders s) + Z.of_nat (length (rq s)).

Lemma fifo_fuel_phi s : fifo_fuel s = phi s + 1.
Proof.
  unfold fifo_fuel, phi. do 2 f_equal. induction (senders s) as [|a l IH]; cbn; auto. now rewrite IH.
Qed.

Lemma sender_fuel_nonneg x : 0 <= sender_fuel x.
Proof. unfold sender_fuel. destruct (s_pc x); lia. Qed.

Lemma phi_nonneg s : 0 <= phi s.
Proof.
  unfold phi. pose proof (sumf_nonneg sender_fuel (senders s) (fun x _ => sender_fuel_nonneg x)). lia.
Qed.

Lemma length_remove_nat i l : (length (remove_nat i l) <= length l)%nat.
Proof. unfold remove_nat. induction l as [|a l IH]; cbn; auto. destruct (negb _); cbn; lia. Qed.

Lemma length_remove_head i q : (length (remove_nat i (i :: q)) <= length q)%nat.
Proof.
  unfold remove_nat; cbn. rewrite Nat.eqb_refl; cbn. apply (length_remove_nat i q).
Qed.

Lemma phi_run_head s i q s' out :
  Inv s -> broken s = false -> rq s = i :: q -> step s (Run i) = (s', out) ->
  phi s' + 1 <= phi s /\ broken s' = false.
Proof.
  intros HI Hb Hq Es.
  pose proof (length_remove_head i q) as Lh. rewrite <- Hq in Lh.
  assert (Lq : length (rq s) = S (length q)) by now rewrite Hq.
  destruct (run_spec _ _ _ _ HI Es) as [ | |x Ex Hp|x Ex Hp|x Ex Hp|x c Ex Hp _ Hc Hc0 Hz];
    try congruence; (split; [|reflexivity]); unfold phi, drop_rq, set_sender; cbn [senders rq];
    try lia; pose proof (Inv_sender s x HI (nth_error_In _ _ Ex)) as [A _];
    rewrite (sumf_upd _ _ _ _ _ Ex); unfold sender_fuel, sent, with_pc; cbn [s_pc s_pos s_len];
    rewrite Hp;
    try destruct (_ =? _) eqn:Hfin; lia.
Qed.

Definition fifo_P (x : fifo) : Prop :=
  Inv (f_state x) /\ RQW (f_state x) /\ broken (f_state x) = false.

Lemma fifo_step_P x :
  fifo_P x -> fifo_fin x = false ->
  fifo_P (fifo_step x) /\ phi (f_state (fifo_step x)) + 1 <= phi (f_state x).
Proof.
  intros (HI & HQ & Hb) Hf. unfold fifo_fin in Hf. unfold fifo_step.
  destruct (rq (f_state x)) as [|i q] eqn:Hq; [discriminate|].
  pose proof (Inv_step _ (Run i) HI) as HI1. pose proof (RQW_step _ (Run i) HI HQ) as HQ1.
  destruct (step (f_state x) (Run i)) as [s1 out] eqn:Es.
  destruct (phi_run_head _ _ _ _ _ HI Hb Hq Es) as [Hphi Hb1]. cbn [fst] in *.
  destruct out as [|ch out']; [|destruct (f_budget x) as [[|k]|]]; cbn [f_state];
    try (split; [split; [|split]|]; assumption).
  (* the transport pauses from inside this write: [do_pause] touches neither senders nor queues *)
  pose proof (Inv_step _ Pause HI1) as HI2. unfold step in *. rewrite Hb1 in *.
  split; [split; [|split]|]; auto.
Qed.

Lemma fifo_quiescent budget s :
  Inv s -> RQW s -> broken s = false -> quiescent (fst (fifo_result budget s)) = true.
Proof.
  intros HI HR Hb. unfold fifo_result, fifo_quiesce. cbn [fst].
  pose proof (iter_until_measure fifo_fin fifo_step fifo_P (fun x => phi (f_state x)) fifo_step_P
                (Z.to_pos (fifo_fuel s)) (mkFifo s budget [] []) (conj HI (conj HR Hb))) as H.
  set (r := iter_until _ _ _ _) in *. destruct H as [(_ & HR' & _) [Hfin|Hm]].
  - apply quiescent_spec. intros y Hy. destruct (ready_pc (s_pc y)) eqn:Hr; auto. exfalso.
    destruct (In_nth_error _ _ Hy) as [j Ej]. apply (HR' j y Ej) in Hr.
    unfold fifo_fin in Hfin. destruct (rq (f_state r)); [destruct Hr|discriminate].
  - exfalso. cbn in Hm. rewrite fifo_fuel_phi in Hm.
    pose proof (phi_nonneg s). pose proof (phi_nonneg (f_state r)). lia.
Qed.

(* Back-pressure.  [Run i] is one iteration of the loop, and an iteration that has sent leaves
   the sender at the loop top (or done): the next one only looks at write_ready, and blocks
   if it is clear.  So no sender emits in two consecutive iterations, paused or not. *)
Lemma no_two_sends_in_a_row s i s1 out1 s2 out2 :
  Inv s -> step s (Run i) = (s1, out1) -> step s1 (Run i) = (s2, out2) -> out1 = [] \/ out2 = [].
Proof.
  intros HI E1 E2. pose proof (Inv_step s (Run i) HI) as HI1. rewrite E1 in HI1.
  destruct (run_spec _ _ _ _ HI E1) as [ | | | | |x c Ex]; auto. right.
  destruct (run_spec _ _ _ _ HI1 E2) as [ | | | | |x' c' Ex' Hp']; auto.
  cbn in Ex'. rewrite (nth_error_upd _ _ _ _ _ Ex), Nat.eqb_refl in Ex'. injection Ex' as <-.
  cbn in Hp'. destruct (_ =? _); discriminate.
Qed.

(* a sender at the loop top with write_ready clear suspends without writing (no invariant needed) *)
Lemma top_blocks_when_paused s i x s1 out1 :
  broken s = false -> wready s = false -> nth_error (senders s) i = Some x -> s_pc x = Top ->
  step s (Run i) = (s1, out1) ->
  out1 = [] /\ nth_error (senders s1) i = Some (with_pc x WaitWrite).
Proof.
  intros Hb W Ex Hp. unfold step, do_run. rewrite Hb, Ex, Hp, W. intros [= <- <-]. cbn.
  now rewrite (nth_error_upd _ _ _ _ _ Ex), Nat.eqb_refl.
Qed.

(* the model's error branch: what h2 rejects breaks the connection and nothing is sent afterwards *)
Lemma broken_is_final s o : broken s = true -> step s o = (s, []).
Proof. intros H. unfold step. now rewrite H. Qed.

(* What the source does (Gen/FactsC07.v, regenerated from /repo on every run by
   tools/facts_C07.py): the control-flow paths of the flow-control functions, private helpers
   executed in place, one loop iteration deep, as sequences of effects on objects named by ROLE.  Spelling
   (names of locals and private attributes, helpers, if/else versus early return, temporaries)
   does not enter; these are the facts the model Model/FlowSend.v transcribes. *)

Definition P (l : list (list string)) : list (list (list Z)) := map (map s2z) l.

(* Stream.send_data, one iteration of its loop:
   - it starts by awaiting write_ready (pc Top), then reads the window (pc CheckWindow);
   - window <= 0: clear window_updated, await it, and go round the loop again (the wait is re-checked);
   - window > 0: chunk = min(window, max frame, rest) with window and max frame read since the last
     suspension point; h2.send_data; data_to_send; transport.write -- no await anywhere after the
     window was read -- then either the function returns or it loops;
   - whichever loop takes the back edge (`->loop`), what follows is again await write_ready and a fresh
     read of the window (`->recheck`): nothing is decided on a window read before a suspension. *)
Definition expected_send_data : list (list string) :=
  [ [ "await:write_ready"; "h2:window_read"; "window<=0";
      "clear:window_updated(self)"; "await:window_updated(self)";
      "->loop"; "await:write_ready"; "h2:window_read"; "->recheck" ];
    [ "await:write_ready"; "h2:window_read"; "window>0"; "chunk:min{max_frame,other,window}";
      "h2:send_data"; "h2:data_to_send"; "transport:write(h2data)"; "->exit" ];
    [ "await:write_ready"; "h2:window_read"; "window>0"; "chunk:min{max_frame,other,window}";
      "h2:send_data"; "h2:data_to_send"; "transport:write(h2data)";
      "->loop"; "await:write_ready"; "h2:window_read"; "->recheck" ] ]%string.

(* process_window_updated: stream id 0 sets the event of EVERY registered stream; otherwise the event of
   the addressed stream, if it is registered *)
Definition expected_window_updated : list (list string) :=
  [ [ "sid!=0"; "addressed:absent"; "->exit" ];
    [ "sid!=0"; "addressed:present"; "set:window_updated(addressed)"; "->exit" ];
    [ "sid==0"; "set:window_updated(all)"; "->exit" ] ]%string.

(* process_remote_settings_changed: INITIAL_WINDOW_SIZE among the changed settings (whatever else the
   frame carries) sets the event of every registered stream *)
Definition expected_settings_changed : list (list string) :=
  [ [ "has:INITIAL_WINDOW_SIZE"; "set:window_updated(all)"; "->exit" ];
    [ "lacks:INITIAL_WINDOW_SIZE"; "->exit" ] ]%string.

(* Connection.resume_writing: write_ready.set() FIRST, then (unless closing) flush what h2 has queued;
   Connection.flush: data_to_send, written to the transport if there is any *)
Definition expected_resume_writing : list (list string) :=
  [ [ "set:write_ready"; "closing"; "->exit" ];
    [ "set:write_ready"; "not-closing"; "call:self.flush"; "->exit" ] ]%string.
Definition expected_flush : list (list string) :=
  [ [ "h2:data_to_send"; "->exit" ];
    [ "h2:data_to_send"; "transport:write(h2data)"; "->exit" ] ]%string.

(* the same content, as the individual facts the model leans on, checked on the generated paths *)
Definition tok_is (s : string) (t : list Z) : bool := zlist_eqb t (s2z s).
Definition is_await (t : list Z) : bool := starts_with (s2z "await:") t.
Fixpoint after (s : string) (p : list (list Z)) : list (list Z) :=
  match p with [] => [] | t :: r => if tok_is s t then r else after s r end.
Definition has (s : string) (p : list (list Z)) : bool := existsb (tok_is s) p.

(* the part of a path before its first back edge *)
Fixpoint upto_loop (p : list (list Z)) : list (list Z) :=
  match p with [] => [] | t :: r => if tok_is "->loop" t then [] else t :: upto_loop r end.
(* (a) between reading the window and the h2 send + transport write there is no suspension point *)
Definition no_await_after_window_read (p : list (list Z)) : bool :=
  negb (has "h2:send_data" p) || negb (existsb is_await (after "h2:window_read" (upto_loop p))).
(* (b) every h2.send_data is handed to the transport at once *)
Fixpoint send_written_at_once (p : list (list Z)) : bool :=
  match p with
  | [] => true
  | t :: r => (if tok_is "h2:send_data" t then
                 match r with a :: b :: _ => tok_is "h2:data_to_send" a && tok_is "transport:write(h2data)" b
                            | _ => false end
               else true) && send_written_at_once r
  end.
(* (c) the only suspension points are write_ready (first thing in an iteration) and the stream's own
   window_updated (right after clear(), with no send on that path), and a path that waited for credit
   goes round the loop again: the wait is re-checked *)
Definition waits_ok (p : list (list Z)) : bool :=
  match p with
  | w :: r =>
      tok_is "await:write_ready" w &&
      forallb (fun t => negb (is_await t) || tok_is "await:window_updated(self)" t
                        || tok_is "await:write_ready" t) r &&
      (negb (has "await:window_updated(self)" p) ||
       (match after "clear:window_updated(self)" p with
        | a :: e :: _ => tok_is "await:window_updated(self)" a && tok_is "->loop" e
        | _ => false end && has "window<=0" p && negb (has "h2:send_data" p))) &&
      (* after any back edge: write_ready is awaited and the window read again before anything else *)
      (negb (has "->loop" p) ||
       match after "->loop" p with
       | a :: b :: c :: [] => tok_is "await:write_ready" a && tok_is "h2:window_read" b && tok_is "->recheck" c
       | _ => false end)
  | [] => false
  end.
(* (d) a positive window is never waited on, a non-positive one never sent on *)
Definition window_branches_ok (p : list (list Z)) : bool :=
  (negb (has "window>0" p) || (has "h2:send_data" p && negb (has "clear:window_updated(self)" p)
                               && has "chunk:min{max_frame,other,window}" p)) &&
  (negb (has "window<=0" p) || negb (has "h2:send_data" p)) &&
  (has "window>0" p || has "window<=0" p).

(* (e) wake-ups: every path for stream id 0 / for an INITIAL_WINDOW_SIZE change sets the event of every
   registered stream; every path for a registered addressed stream sets that stream's event *)
Definition wakeups_ok : bool :=
  forallb (fun p => negb (has "sid==0" p) || has "set:window_updated(all)" p) paths_process_window_updated &&
  forallb (fun p => negb (has "addressed:present" p) || has "set:window_updated(addressed)" p)
          paths_process_window_updated &&
  forallb (fun p => has "sid==0" p || has "sid!=0" p) paths_process_window_updated &&
  forallb (fun p => negb (has "has:INITIAL_WINDOW_SIZE" p) || has "set:window_updated(all)" p)
          paths_process_remote_settings_changed &&
  forallb (fun p => has "has:INITIAL_WINDOW_SIZE" p || has "lacks:INITIAL_WINDOW_SIZE" p)
          paths_process_remote_settings_changed.
(* (f) pause clears write_ready; resume sets it before anything is flushed *)
Definition pause_resume_ok : bool :=
  forallb (has "clear:write_ready") paths_connection_pause_writing &&
  forallb (fun p => match p with t :: _ => tok_is "set:write_ready" t | [] => false end)
          paths_connection_resume_writing &&
  forallb (has "call:connection.pause_writing") paths_protocol_pause_writing &&
  forallb (has "call:connection.resume_writing") paths_protocol_resume_writing.

(* every step of the connection is a (possibly empty) list of steps of the sender system: all the
   theorems above hold along every history of the connection *)
Lemma cstep_projects c o :
  exists ops, run (core c) ops = (core (fst (cstep c o)), snd (cstep c o)).
Proof.
  unfold cstep. destruct (broken (core c)) eqn:Hb; [exists []; reflexivity|].
  destruct o as [[i k|k|v|m| | |i]| | |]; try (exists []; reflexivity);
    try (eexists [_]; rewrite run_one; now apply peer_step).
  - destruct (tpaused c); [exists []; reflexivity|]. exists [Pause]. rewrite run_one. now apply peer_step.
  - destruct (tpaused c); [|exists []; reflexivity]. exists [Resume]. rewrite run_one. now apply peer_step.
  - exists [Run i]. rewrite run_one. now destruct (step (core c) (Run i)).
  - destruct (tpaused c); [|exists []; reflexivity]. destruct (hq c).
    + exists [Resume; Pause]. rewrite run_exec, exec_cons, <- run_exec, run_one.
      rewrite (peer_step _ Resume), (peer_step _ Pause); reflexivity.
    + exists [Resume]. rewrite run_one. now apply peer_step.
Qed.

Lemma crun_projects ops : forall c,
  exists l, run (core c) l = (core (fst (crun c ops)), snd (crun c ops)).
Proof.
  rewrite crun_exec. induction ops as [|o r IH]; intros c; [exists []; reflexivity|].
  destruct (cstep_projects c o) as [l1 H1]. destruct (IH (fst (cstep c o))) as [l2 H2].
  exists (l1 ++ l2). rewrite exec_cons, run_exec, exec_app, <- run_exec, H1. cbn [fst snd]. now rewrite H2.
Qed.

Definition creachable (cfg : list (Z * Z)) (cw iw mf : Z) (c : conn) : Prop :=
  wf_cfg cfg mf /\ exists ops, c = fst (crun (cinit cfg cw iw mf) ops).

Lemma creachable_core cfg cw iw mf c :
  creachable cfg cw iw mf c -> reachable cfg cw iw mf (core c).
Proof.
  intros [W [ops ->]]. split; auto.
  destruct (crun_projects ops (cinit cfg cw iw mf)) as [l H]. exists l. cbn in H. now rewrite H.
Qed.

(* only pause_writing and resume_writing touch write_ready; no transport event breaks the connection *)
Lemma wready_step s o :
  broken s = false ->
  wready (fst (step s o)) = match o with Pause => false | Resume => true | _ => wready s end /\
  (is_frame_op o = false -> broken (fst (step s o)) = false).
Proof.
  intros Hb. unfold step. rewrite Hb. destruct o as [i k|k|v|m| | |i]; cbn [fst].
  - unfold do_win_stream. destruct (nth_error _ _); [destruct (_ || _ || _)|]; split; auto; discriminate.
  - unfold do_win_conn. destruct (_ || _ || _); split; auto; discriminate.
  - unfold do_init_win. destruct (_ || _ || _); split; auto; discriminate.
  - unfold do_max_frame. destruct (_ || _); split; auto; discriminate.
  - auto.
  - unfold do_resume. destruct (wready s) eqn:W; auto.
  - unfold do_run, drop_rq, set_sender. destruct (nth_error _ _) as [x|]; auto. destruct (s_pc x); auto.
    + destruct (wready s) eqn:W; cbn; auto.
    + destruct (_ <=? 0); auto. destruct (_ || _); auto.
Qed.

(* write_ready is set exactly when the transport is not paused; frames stay queued in h2 only while
   it is paused *)
Definition WT (c : conn) : Prop :=
  wready (core c) = negb (tpaused c) /\ (hq c = true -> tpaused c = true).

Lemma WT_cstep c o : WT c -> WT (fst (cstep c o)).
Proof.
  intros H. pose proof H as [H1 H2]. unfold cstep. destruct (broken (core c)) eqn:Hb; [exact H|].
  pose proof (fun o => proj1 (wready_step (core c) o Hb)) as Hw.
  destruct o as [[i k|k|v|m| | |i]| | |]; cbn [fst].
  (* the four frames from the peer: flushed, write_ready untouched *)
  1-4: split; cbn; [rewrite Hw; auto|discriminate].
  - (* Pause *) destruct (tpaused c); [exact H|]. split; cbn; auto. apply Hw.
  - (* Resume *) destruct (tpaused c); [|exact H]. split; cbn; [apply Hw|discriminate].
  - (* Run *)
    specialize (Hw (Run i)). destruct (step (core c) (Run i)) as [s1 out].
    split; cbn in *; [congruence|]. destruct out; auto; discriminate.
  - (* ResetAux *) split; cbn; auto. rewrite H1. now rewrite negb_involutive.
  - (* ResumeP *)
    destruct (tpaused c); [|exact H]. destruct (hq c); split; cbn; auto; try discriminate.
    + apply (wready_step _ Pause), (wready_step (core c) Resume Hb). reflexivity.
    + apply Hw.
  - (* PeerOther *) split; cbn; [auto|discriminate].
Qed.

Lemma creachable_WT cfg cw iw mf c : creachable cfg cw iw mf c -> WT c.
Proof.
  intros [W [ops ->]]. apply (exec_inv cstep WT _ (fun c o _ => WT_cstep c o)). split; [reflexivity|discriminate].
Qed.

Lemma wready_sched_mono ops s :
  forallb sched_op ops = true -> wready s = false -> wready (fst (run s ops)) = false.
Proof.
  rewrite forallb_forall. intros Hs. apply (exec_inv step (fun s => wready s = false)). clear s.
  intros s o Ho%Hs Hw.
  destruct (broken s) eqn:Hb; [now rewrite broken_is_final|].
  rewrite (proj1 (wready_step s o Hb)). destruct o; auto; discriminate.
Qed.

Lemma cstep_sched c o :
  WT c -> sched_op o = true ->
  cstep c (Op o) =
  (mkConn (fst (step (core c) o)) (negb (wready (fst (step (core c) o))))
          (match snd (step (core c) o) with [] => hq c | _ => false end),
   snd (step (core c) o)).
Proof.
  intros [H1 H2] Ho. unfold cstep. destruct c as [s t h]; cbn in *.
  destruct (broken s) eqn:Hb.
  { rewrite (broken_is_final s o Hb). cbn. now rewrite H1, negb_involutive. }
  destruct o; try discriminate.
  - rewrite (peer_step s Pause eq_refl). unfold step; rewrite Hb; cbn. destruct t; auto.
    (* already paused: pause_writing is not called, and would change nothing *)
    destruct s; cbn in *; subst; reflexivity.
  - pose proof (proj1 (wready_step s (Run i) Hb)) as W. destruct (step s (Run i)) as [s1 out].
    cbn in *. now rewrite W, H1, negb_involutive.
Qed.

Lemma crun_sched ops : forall c,
  WT c -> forallb sched_op ops = true ->
  crun c (map Op ops) =
  (mkConn (fst (run (core c) ops)) (negb (wready (fst (run (core c) ops))))
          (match snd (run (core c) ops) with [] => hq c | _ => false end),
   snd (run (core c) ops)).
Proof.
  rewrite crun_exec, run_exec. induction ops as [|o r IH]; intros c HW Hs.
  - destruct c as [s t h], HW as [H1 _]; cbn in *. now rewrite H1, negb_involutive.
  - cbn in Hs. apply andb_prop in Hs as [Ho Hs]. cbn [map]. rewrite !exec_cons.
    pose proof (WT_cstep c (Op o) HW) as HW1. rewrite (cstep_sched c o HW Ho) in *.
    cbn [fst snd] in *. rewrite (IH _ HW1 Hs). cbn [core hq fst snd]. do 2 f_equal.
    destruct (snd (step (core c) o)), (snd (exec step (fst (step (core c) o)) r)); reflexivity.
Qed.

(* the FIFO run on the connection (what the correspondence executes) is a history of the connection *)
Lemma cfifo_is_history budget c :
  WT c -> exists ops, crun c ops = cfifo budget c.
Proof.
  intros HW. destruct (fifo_is_schedule budget (core c)) as [ops [Hs Hr]].
  exists (map Op ops). rewrite (crun_sched ops c HW Hs). unfold cfifo. rewrite <- Hr.
  destruct (run (core c) ops) as [s1 out] eqn:Er; cbn [fst snd]. do 2 f_equal.
  destruct HW as [H1 _]. rewrite H1. destruct (tpaused c) eqn:T; cbn; [|now destruct (wready s1)].
  pose proof (wready_sched_mono ops (core c) Hs H1) as M. rewrite Er in M. cbn in M. now rewrite M.
Qed.
