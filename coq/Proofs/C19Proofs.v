(* Proofs for Props/C19.v, part 1: the aggregate of check statuses as a truth table, Health.Check, and the
   registry built by Health.__init__. *)
From Coq Require Import ZArith List Bool Arith.
From GV Require Import Gen.FactsC19 Model.Health.
Import ListNotations.
Open Scope Z_scope.

Lemma st_eqb_eq a b : st_eqb a b = true <-> a = b.
Proof. destruct a, b; simpl; split; intro H; try reflexivity; discriminate. Qed.

Lemma st_eqb_refl a : st_eqb a a = true.
Proof. destruct a; reflexivity. Qed.

Lemma st_code_inj a b : st_code a = st_code b -> a = b.
Proof. destruct a, b; simpl; intro H; try reflexivity; discriminate. Qed.

Lemma has_In v l : has v l = true <-> In v l.
Proof.
  unfold has. rewrite existsb_exists. split.
  - intros [x [Hin E]]. apply st_eqb_eq in E. subst x. exact Hin.
  - intro H. exists v. split; [exact H | apply st_eqb_refl].
Qed.

Lemma has_ext v l1 l2 : (forall s, In s l1 <-> In s l2) -> has v l1 = has v l2.
Proof.
  intro H. destruct (has v l1) eqn:E1; destruct (has v l2) eqn:E2; try reflexivity.
  - apply has_In, H, has_In in E1. congruence.
  - apply has_In, H, has_In in E2. congruence.
Qed.

Lemma agg_status_set l1 l2 :
  (forall s, In s l1 <-> In s l2) -> agg_status l1 = agg_status l2.
Proof.
  intro H. destruct l1 as [|a r1]; destruct l2 as [|b r2]; try reflexivity.
  - exfalso. apply (proj2 (H b)). left. reflexivity.
  - exfalso. apply (proj1 (H a)). left. reflexivity.
  - unfold agg_status, sig_of. rewrite (has_ext STrue _ _ H), (has_ext SFalse _ _ H), (has_ext SNone _ _ H).
    reflexivity.
Qed.

Lemma table_bits t f n :
  resp_of_Z (table_lookup (t, f, n) status_table) =
  if f then R_NOT_SERVING else if t then (if n then R_NOT_SERVING else R_SERVING)
  else if n then R_UNKNOWN else R_INVALID (-1).
Proof. destruct t, f, n; reflexivity. Qed.

Lemma agg_status_bits l :
  l <> [] ->
  agg_status l =
  if has SFalse l then R_NOT_SERVING else if has STrue l then (if has SNone l then R_NOT_SERVING else R_SERVING)
  else if has SNone l then R_UNKNOWN else R_INVALID (-1).
Proof. destruct l; [congruence|]. intros _. apply table_bits. Qed.

(* the table observed on the code is exactly the truth table of the property: the lists of statuses fall
   into three classes, and the answer says which *)
Theorem agg_status_cases l :
  let S := l <> [] /\ (forall s, In s l -> s = STrue) in
  let U := l <> [] /\ (forall s, In s l -> s = SNone) in
  agg_status l = R_SERVING /\ S /\ ~ U \/
  agg_status l = R_UNKNOWN /\ U /\ ~ S \/
  agg_status l = R_NOT_SERVING /\ ~ S /\ ~ U.
Proof.
  cbv zeta. destruct l as [|a r]; [right; right; repeat split; intros [H _]; now apply H|].
  rewrite agg_status_bits by discriminate. set (l := a :: r).
  assert (B : forall u v, (forall s, In s l -> s = v) -> has u l = true -> u = v)
    by (intros u v H Hu; apply H, has_In, Hu).
  assert (O : forall v, (forall u, has u l = true -> u = v) -> forall s, In s l -> s = v)
    by (intros v H s Hs; apply H, has_In, Hs).
  assert (Ha : has a l = true) by (apply has_In; left; reflexivity).
  (* the three bits of the set decide the class; not all three are clear *)
  destruct (has SFalse l) eqn:F.
  { right; right. repeat split; intros [_ H]; discriminate (B _ _ H F). }
  destruct (has STrue l) eqn:T, (has SNone l) eqn:N.
  - right; right. repeat split; intros [_ H]; [discriminate (B _ _ H N) | discriminate (B _ _ H T)].
  - left. repeat split; [discriminate | apply O; intros [] Hu; congruence | intros [_ H]; discriminate (B _ _ H T)].
  - right; left. repeat split; [discriminate | apply O; intros [] Hu; congruence | intros [_ H]; discriminate (B _ _ H N)].
  - destruct a; congruence.
Qed.

Lemma check_registered reg vals name cs :
  lookup reg name = Some cs ->
  exists r, check_rpc reg vals name = CA_Resp r /\
    (r = R_SERVING <-> (forall i, In i cs -> val_of vals i = STrue)) /\
    (r = R_UNKNOWN <-> cs <> [] /\ (forall i, In i cs -> val_of vals i = SNone)) /\
    (r = R_SERVING \/ r = R_UNKNOWN \/ r = R_NOT_SERVING).
Proof.
  intro H. unfold check_rpc. rewrite H. destruct cs as [|c cs'].
  - exists R_SERVING. repeat split; auto; try discriminate; [intros _ i [] | intros [A _]; congruence].
  - set (l := map (val_of vals) (c :: cs')). exists (agg_status l). split; [reflexivity|].
    assert (Hin : forall v, (forall s, In s l -> s = v) <-> (forall i, In i (c :: cs') -> val_of vals i = v)).
    { intro v. unfold l. split.
      - intros A i Hi. apply A, in_map, Hi.
      - intros A s Hs. apply in_map_iff in Hs. destruct Hs as [i [<- Hi]]. apply A, Hi. }
    assert (Ne : l <> [] /\ c :: cs' <> []) by (split; discriminate).
    (* in each class constructors decide the equations, the rest is propositional *)
    rewrite <- !Hin. destruct (agg_status_cases l) as [[E X]|[[E X]|[E X]]]; rewrite E;
      (split; [|split]); try tauto; split; (discriminate || tauto).
Qed.

Lemma nat_mem_In x l : nat_mem x l = true <-> In x l.
Proof.
  induction l as [|y r IH]; simpl; [split; [discriminate | tauto]|].
  rewrite orb_true_iff, IH, Nat.eqb_eq. split; intros [H|H]; auto.
Qed.

Lemma dedup_In x l : In x (dedup l) <-> In x l.
Proof.
  induction l as [|y r IH]; simpl; [tauto|].
  destruct (nat_mem y (dedup r)) eqn:E.
  - rewrite IH. split; [auto|]. intros [H|H]; [|exact H]. subst y. apply IH, nat_mem_In, E.
  - simpl. rewrite IH. tauto.
Qed.

Lemma lookup_app_last r k v name :
  lookup (r ++ [(k, v)]) name = if k =? name then Some v else lookup r name.
Proof.
  induction r as [|[k' v'] rest IH]; cbn [app lookup].
  - destruct (k =? name); reflexivity.
  - rewrite IH. destruct (k =? name); reflexivity.
Qed.

Lemma lookup_map (f : list nat -> list nat) r name :
  lookup (map (fun kv => (fst kv, f (snd kv))) r) name = option_map f (lookup r name).
Proof.
  induction r as [|[k v] rest IH]; [reflexivity|]. cbn [map lookup fst snd]. rewrite IH.
  destruct (lookup rest name); [reflexivity|]. cbn [option_map]. destruct (k =? name); reflexivity.
Qed.

(* no mapping given: only OVERALL, with no checks *)
Lemma health_init_none name :
  lookup (health_init None) name = if overall =? name then Some [] else None.
Proof. reflexivity. Qed.

(* OVERALL not given: it is the union of all check lists; the named services keep their own sets *)
Lemma health_init_default (cfg : list (Z * list nat)) name :
  existsb (fun kv => fst kv =? overall) cfg = false ->
  lookup (health_init (Some cfg)) name =
  if overall =? name then Some (dedup (concat (map snd cfg))) else option_map dedup (lookup cfg name).
Proof.
  intro H. unfold health_init. rewrite H, lookup_map, lookup_app_last.
  destruct (overall =? name); reflexivity.
Qed.

Lemma health_init_explicit (cfg : list (Z * list nat)) name :
  existsb (fun kv => fst kv =? overall) cfg = true ->
  lookup (health_init (Some cfg)) name = option_map dedup (lookup cfg name).
Proof. intro H. unfold health_init. rewrite H, lookup_map. reflexivity. Qed.

Lemma overall_default_members (cfg : list (Z * list nat)) i :
  In i (dedup (concat (map snd cfg))) <-> exists kv, In kv cfg /\ In i (snd kv).
Proof.
  rewrite dedup_In, in_concat. split.
  - intros [l [Hl Hi]]. apply in_map_iff in Hl. destruct Hl as [kv [E Hkv]]. subst l. exists kv. auto.
  - intros [kv [Hkv Hi]]. exists (snd kv). split; [apply in_map, Hkv | exact Hi].
Qed.
