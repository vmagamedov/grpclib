(* Proofs/C16Examples.v -- refutation witnesses (each is replayed on the real code by harness/drive_C16.py,
   corpus/C16) and non-vacuity examples for C16, all by computation. *)
From Coq Require Import List Bool Arith Lia.
From GV Require Import Model.Channel Proofs.C16Proofs.
Import ListNotations.

(* FULL statement (false): "whenever __connect__ returns a connection to a caller, that connection is
   neither lost nor closing at that instant".
   Witness: the attempt completes (connection 0 made), connection_lost is delivered before the
   connecting task resumes; the task then stores the dead protocol, returns it and dies of AttributeError. *)
Lemma connect_returns_live_refuted :
  exists sc ops k c, let s := run ops (init sc) in
    ph (getk s k) = PAttempt (AOk c) /\ lost (getc s c) = true /\
    ph (getk (step s (Run k)) k) = PEnd (RExn EAttr) /\ protocol (step s (Run k)) = Some c /\
    ~ good_ret (step s (Run k)) k.
Proof.
  exists [], [Start; Run 0; Resolve 0; Lose 0], 0, 0. vm_compute. repeat split; auto.
Qed.

(* FULL statement (false): "Channel.close() terminates every call in flight on the connection".
   Witness (D6): caller 1 got connection 0 while writing was paused; it waits on write_ready inside
   protocol.Stream.send_request and is not registered; close() does not reach it: after the loop ran
   everything that was ready it is still blocked, and nothing will ever wake it. *)
Lemma close_terminates_all_calls_refuted :
  exists sc ops k c, let s := run ops (init sc) in
    protocol s = Some c /\ ph (getk s k) = PGot c false /\
    let s' := snd (batch s [SChClose]) in
    ph (getk s' k) = PGot c false /\ enabled s' k = false /\ rq s' = [] /\ lost (getc s' c) = true.
Proof.
  exists [], [Start; Run 0; Resolve 0; Run 0; Pause 0; Start; Run 1], 1, 0. vm_compute. repeat split; auto.
Qed.

(* FULL statement (false): "after Channel.close(), and until another call is started, the channel holds
   no live connection and no call that was in flight continues".
   Witness: close() runs while caller 0's attempt is in flight (_protocol is None, nothing is closed, the
   attempt is not aborted); the attempt then completes, the closed channel stores the new connection and
   the call proceeds on it. *)
Lemma close_aborts_connecting_calls_refuted :
  exists sc ops k, let s := run ops (init sc) in
    ph (getk s k) = PAttempt (AFlight OOk) /\
    let s2 := run [ChClose; Resolve k; Run k] s in
    ph (getk s2 k) = PReg 0 /\ protocol s2 = Some 0 /\ live_connections s2 = 1 /\ chst s2 = Ready.
Proof.
  exists [], [Start; Run 0], 0. vm_compute. repeat split; auto.
Qed.

(* three concurrent callers, the first attempt fails, the second succeeds: one attempt at a time, the
   OSError goes to caller 0 only, callers 1 and 2 share connection 0 *)
Definition sched3 : list op :=
  [Start; Start; Start; Run 0; Run 1; Run 2; Resolve 0; Run 0; Run 1; Resolve 1; Run 1; Run 2;
   Answer 1; Answer 2; Run 1; Run 2].
Example ex_contention_mid :
  let s := run (firstn 6 sched3) (init [(OFail, false); (OOk, false)]) in
  attempting s = 1 /\ attempts_in_flight s = 1 /\ length (waiters s) = 2 /\ locked s = true /\ creates s = 1.
Proof. vm_compute. repeat split; auto. Qed.
Example ex_contention_end :
  let s := run sched3 (init [(OFail, false); (OOk, false)]) in
  map ph (callers s) = [PEnd (RExn EOSError); PEnd (ROk 0); PEnd (ROk 0)] /\ fails s = [0] /\
  creates s = 2 /\ live_connections s = 1 /\ locked s = false /\ protocol s = Some 0.
Proof. vm_compute. repeat split; auto. Qed.

(* the same through the FIFO scheduler of the correspondence check *)
Example ex_fifo_share :
  let ss := snd (batches (init []) [[SStart; SStart; SStart]; [SResolve]; [SAnswer 0; SAnswer 1; SAnswer 2]]) in
  map (fun s => (creates s, attempts_in_flight s, live_connections s)) ss = [(1, 1, 0); (1, 0, 1); (1, 0, 1)] /\
  map ph (callers (last ss (init []))) = [PEnd (ROk 0); PEnd (ROk 0); PEnd (ROk 0)].
Proof. vm_compute. repeat split; auto. Qed.

(* D16 interleaving (repaired): a call whose first step runs between keepalive Connection.close() and
   connection_lost does not get the closing connection: it starts a new attempt *)
Example ex_d16_repaired :
  let s := run [Start; Run 0; Resolve 0; Run 0; Start; KAClose 0; Run 1] (init []) in
  closing (getc s 0) = true /\ lost (getc s 0) = false /\ ph (getk s 1) = PAttempt (AFlight OOk) /\ creates s = 2.
Proof. vm_compute. repeat split; auto. Qed.

(* hypotheses of C16_connect_returns_live_partial are satisfiable, and the conclusion is informative *)
Example ex_connect_live :
  let s := run [Start; Run 0; Resolve 0] (init []) in
  connect_phase (ph (getk s 0)) = true /\ own_conn_alive s 0 /\ ph (getk (step s (Run 0)) 0) = PReg 0.
Proof.
  cbv zeta. split; [reflexivity|]. split; [|reflexivity].
  intros c H. vm_compute in H. inversion H; subst. reflexivity.
Qed.

(* hypotheses of shared_connection_fast / shared_connection_waiter *)
Example ex_shared_fast :
  let s := run [Start; Run 0; Resolve 0; Run 0; Start] (init []) in
  connected s = true /\ ph (getk s 1) = PNew /\ cancelp (getk s 1) = false.
Proof. vm_compute. repeat split; auto. Qed.
Example ex_shared_waiter :
  let s := run [Start; Start; Run 0; Run 1; Resolve 0; Run 0] (init []) in
  connected s = true /\ ph (getk s 1) = PWait /\ cancelp (getk s 1) = false /\ wlookup 1 (waiters s) = Some WWoken.
Proof. vm_compute. repeat split; auto. Qed.

(* hypotheses of failed_attempt_step / next_holder_retries *)
Example ex_failed_attempt :
  let s := run [Start; Start; Run 0; Run 1; Resolve 0] (init [(OFail, false)]) in
  ph (getk s 0) = PAttempt AFail /\ cancelp (getk s 0) = false /\
  let s' := step s (Run 0) in
  ph (getk s' 1) = PWait /\ cancelp (getk s' 1) = false /\ wlookup 1 (waiters s') = Some WWoken /\ connected s' = false.
Proof. vm_compute. repeat split; auto. Qed.

(* hypotheses of close_cancels_registered / loss_cancels_registered / C16_goaway_cancels_registered *)
Example ex_registered :
  let s := run [Start; Start; Run 0; Run 1; Resolve 0; Run 0; Run 1] (init []) in
  protocol s = Some 0 /\ In 1 (calls (getc s 0)) /\ ph (getk s 1) = PReg 0 /\
  delivered (getc s 0) = false /\ valid_open s 0 = true.
Proof. vm_compute. repeat split; auto. Qed.

(* hypotheses of fresh_call_connects / C16_usable_after_close_partial: a reachable quiet, unconnected state (the
   connection was lost, the call on it was terminated) *)
Definition s_after_loss : state := run [Start; Run 0; Resolve 0; Run 0; Lose 0; Run 0] (init []).
Example ex_after_loss :
  Inv s_after_loss /\ quiet s_after_loss /\ connected s_after_loss = false /\
  hd (OOk, false) (script s_after_loss) = (OOk, false) /\ live_connections s_after_loss = 0 /\
  ph (getk s_after_loss 0) = PEnd (RExn ETerminated).
Proof.
  split. apply reach_inv. split.
  - split; [reflexivity|]. split; [reflexivity|]. intros [|k]. reflexivity.
    unfold s_after_loss, getk. vm_compute. destruct k; reflexivity.
  - vm_compute. repeat split; auto.
Qed.
Example ex_reconnect_concrete :
  let s' := run [Start; Run 1; Resolve 1; Run 1] s_after_loss in
  creates s' = 2 /\ protocol s' = Some 1 /\ ph (getk s' 1) = PReg 1 /\ live_connections s' = 1.
Proof. vm_compute. repeat split; auto. Qed.
