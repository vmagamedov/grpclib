(* Non-vacuity examples and refutation witnesses for C20.  Everything is decided by vm_compute on
   concrete descriptor sets (the same ones as corpus/C20/*.json, which the driver replays on the
   real plugin on every run). *)
From Coq Require Import String ZArith List Bool.
From GV Require Import Lib.Str Gen.Facts Gen.FactsC20 Model.Plugin Proofs.C20Proofs.
Import ListNotations.
Open Scope Z_scope.

Definition M (n : string) (nested : list msg) : msg := Msg (s2z n) nested.
Definition me (n : string) (cs ss : bool) (i o : string) : method := Method (s2z n) cs ss (s2z i) (s2z o).

(* corpus/C20/01: dotted packages, directories, hyphens, .protodevel, a dependency, nested types
   three deep, the same simple name `Id` in two packages, all four cardinalities, a service without
   methods, a file without services *)
Definition ex_dep : file :=
  File (s2z "dep/common-types.proto") (s2z "acme.common") []
       [M "Id" [M "Part" [M "Deep" []]]] [].
Definition ex_api : file :=
  File (s2z "svc/my-api.protodevel") (s2z "acme.api.v1") [s2z "dep/common-types.proto"]
       [M "Req" [M "Inner" []]; M "Id" []]
       [Service (s2z "Greeter")
          [me "Hello" false false ".acme.api.v1.Req" ".acme.common.Id.Part.Deep";
           me "Many" true false ".acme.api.v1.Req.Inner" ".acme.api.v1.Id";
           me "Down" false true ".acme.common.Id" ".acme.api.v1.Id";
           me "Bidi" true true ".acme.common.Id.Part" ".acme.api.v1.Id"];
        Service (s2z "Empty") []].
Definition ex_nosvc : file := File (s2z "nosvc.proto") [] [] [M "M" []] [].
Definition ex_req : request :=
  Request [ex_dep; ex_api; ex_nosvc] [s2z "svc/my-api.protodevel"; s2z "nosvc.proto"].

Example ex_unique_types : unique_types (r_files ex_req).
Proof. apply unique_typesb_sound. vm_compute. reflexivity. Qed.

Example ex_unique_files : NoDup (map f_name (r_files ex_req)).
Proof. apply nodup_strb_sound. vm_compute. reflexivity. Qed.

Example ex_get_proto : get_proto (r_files ex_req) (s2z "svc/my-api.protodevel") = Some ex_api.
Proof. vm_compute. reflexivity. Qed.

Example ex_definition_clean : definition_clean (r_files ex_req) ex_api.
Proof. apply definition_clean_direct, definition_clean_anyb_sound. vm_compute. reflexivity. Qed.

Example ex_types_map :
  types_entries (r_files ex_req) =
  [ (s2z ".acme.common.Id", s2z "dep.common_types_pb2.Id");
    (s2z ".acme.common.Id.Part", s2z "dep.common_types_pb2.Id.Part");
    (s2z ".acme.common.Id.Part.Deep", s2z "dep.common_types_pb2.Id.Part.Deep");
    (s2z ".acme.api.v1.Req", s2z "svc.my_api_pb2.Req");
    (s2z ".acme.api.v1.Req.Inner", s2z "svc.my_api_pb2.Req.Inner");
    (s2z ".acme.api.v1.Id", s2z "svc.my_api_pb2.Id");
    (s2z ".M", s2z "nosvc_pb2.M") ].
Proof. vm_compute. reflexivity. Qed.

Definition ex_route (m : string) : str := s2z ("/acme.api.v1.Greeter/" ++ m).

Definition ex_module : amodule :=
  AModule (s2z "svc/my-api.protodevel")
    [s2z "abc"; s2z "typing"; s2z "grpclib.const"; s2z "grpclib.client";
     s2z "dep.common_types_pb2"; s2z "svc.my_api_pb2"]
    [s2z "grpclib.server"]
    [ AService (s2z "Greeter") [s2z "Hello"; s2z "Many"; s2z "Down"; s2z "Bidi"]
        [ MapEntry (ex_route "Hello") (s2z "Hello") (s2z "UNARY_UNARY")
                   (s2z "svc.my_api_pb2.Req") (s2z "dep.common_types_pb2.Id.Part.Deep");
          MapEntry (ex_route "Many") (s2z "Many") (s2z "STREAM_UNARY")
                   (s2z "svc.my_api_pb2.Req.Inner") (s2z "svc.my_api_pb2.Id");
          MapEntry (ex_route "Down") (s2z "Down") (s2z "UNARY_STREAM")
                   (s2z "dep.common_types_pb2.Id") (s2z "svc.my_api_pb2.Id");
          MapEntry (ex_route "Bidi") (s2z "Bidi") (s2z "STREAM_STREAM")
                   (s2z "dep.common_types_pb2.Id.Part") (s2z "svc.my_api_pb2.Id") ]
        [ StubEntry (s2z "Hello") (s2z "UnaryUnaryMethod") (ex_route "Hello")
                    (s2z "svc.my_api_pb2.Req") (s2z "dep.common_types_pb2.Id.Part.Deep");
          StubEntry (s2z "Many") (s2z "StreamUnaryMethod") (ex_route "Many")
                    (s2z "svc.my_api_pb2.Req.Inner") (s2z "svc.my_api_pb2.Id");
          StubEntry (s2z "Down") (s2z "UnaryStreamMethod") (ex_route "Down")
                    (s2z "dep.common_types_pb2.Id") (s2z "svc.my_api_pb2.Id");
          StubEntry (s2z "Bidi") (s2z "StreamStreamMethod") (ex_route "Bidi")
                    (s2z "dep.common_types_pb2.Id.Part") (s2z "svc.my_api_pb2.Id") ];
      AService (s2z "Empty") [] [] [] ].

Example ex_main :
  main ex_req = Ok [ (s2z "svc/my_api_grpc.py", ex_module);
                     (s2z "nosvc_grpc.py", AModule (s2z "nosvc.proto") [] [] []) ].
Proof. vm_compute. reflexivity. Qed.

Example ex_syntax_ok : syntax_ok ex_module = true.
Proof. vm_compute. reflexivity. Qed.
Example ex_modelled : modelled ex_module = true.
Proof. vm_compute. reflexivity. Qed.

Example ex_exec : exec_module ex_module = Ok (ideal_exec ex_module).
Proof. vm_compute. reflexivity. Qed.

Example ex_exec_classes :
  match exec_module ex_module with
  | Ok cls => map fst cls = [s2z "GreeterBase"; s2z "GreeterStub"; s2z "EmptyBase"; s2z "EmptyStub"]
  | Err _ => False
  end.
Proof. vm_compute. reflexivity. Qed.

(* the empty package: no leading dot in the route, ".M" / ".M.N" as type names *)
Definition ex_nopkg : request :=
  Request [File (s2z "a.proto") [] [] [M "M" [M "N" []]]
             [Service (s2z "S") [me "Foo" false true ".M" ".M.N"]]] [s2z "a.proto"].

Example ex_nopkg_main :
  main ex_nopkg = Ok [ (s2z "a_grpc.py",
    AModule (s2z "a.proto")
      [s2z "abc"; s2z "typing"; s2z "grpclib.const"; s2z "grpclib.client"; s2z "a_pb2"]
      [s2z "grpclib.server"]
      [AService (s2z "S") [s2z "Foo"]
         [MapEntry (s2z "/S/Foo") (s2z "Foo") (s2z "UNARY_STREAM") (s2z "a_pb2.M") (s2z "a_pb2.M.N")]
         [StubEntry (s2z "Foo") (s2z "UnaryStreamMethod") (s2z "/S/Foo") (s2z "a_pb2.M") (s2z "a_pb2.M.N")]]) ].
Proof. vm_compute. reflexivity. Qed.

Example ex_names :
  pb2_module_name (s2z "x-y/z-w.protodevel") = s2z "x_y.z_w_pb2" /\
  grpc_module_name (s2z "a/b-c.proto") = s2z "a.b_c_grpc" /\
  out_file_name (s2z "a/b-c.proto") = s2z "a/b_c_grpc.py" /\
  pb2_module_name (s2z "plain") = s2z "plain_pb2" /\
  pb2_module_name (s2z "x.proto.protodevel") = s2z "x.proto_pb2" /\
  pb2_module_name (s2z "x.protodevel.proto") = s2z "x.protodevel_pb2".
Proof. vm_compute. repeat split; reflexivity. Qed.

Example ex_keyerror :
  main (Request [File (s2z "a.proto") (s2z "p") [] [M "M" []]
                   [Service (s2z "S") [me "Foo" false false ".p.M" ".p.Nope"]]] [s2z "a.proto"])
  = Err EKeyError.
Proof. vm_compute. reflexivity. Qed.

Example ex_stopiteration : main (Request [ex_nosvc] [s2z "missing.proto"]) = Err EStopIteration.
Proof. vm_compute. reflexivity. Qed.

(* an undeclared type in a file that is NOT generated is never looked up *)
Example ex_ungenerated_not_checked :
  exists mods,
    main (Request [File (s2z "a.proto") (s2z "p") [] [M "M" []]
                     [Service (s2z "S") [me "Foo" false false ".p.M" ".p.Nope"]]; ex_nosvc]
                  [s2z "nosvc.proto"]) = Ok mods.
Proof. eexists. vm_compute. reflexivity. Qed.

(* duplicate method names (protoc rejects them): Python keeps the first position and the last value *)
Definition ex_dup : request :=
  Request [File (s2z "a.proto") [] [] [M "M" []; M "N" []]
             [Service (s2z "S") [me "Foo" false false ".M" ".M"; me "Bar" true false ".M" ".M";
                                 me "Foo" false true ".N" ".N"]]] [s2z "a.proto"].

Example ex_dup_exec :
  match main ex_dup with
  | Ok [(_, am)] =>
      match exec_module am with
      | Ok [(_, CBase b); (_, CStub st)] =>
          eb_abstract b = [s2z "Foo"; s2z "Bar"] /\
          eb_mapping b = Ok [ (s2z "/S/Foo", MapEntry (s2z "/S/Foo") (s2z "Foo") (s2z "UNARY_STREAM")
                                                      (s2z "a_pb2.N") (s2z "a_pb2.N"));
                              (s2z "/S/Bar", MapEntry (s2z "/S/Bar") (s2z "Bar") (s2z "STREAM_UNARY")
                                                      (s2z "a_pb2.M") (s2z "a_pb2.M")) ] /\
          match es_attrs st with
          | Ok attrs => map fst attrs = [s2z "Foo"; s2z "Bar"] /\
                        map (fun kv => s_cls (snd kv)) attrs = [s2z "UnaryStreamMethod"; s2z "StreamUnaryMethod"]
          | Err _ => False
          end
      | _ => False
      end
  | _ => False
  end.
Proof. vm_compute. repeat split; reflexivity. Qed.

(* duplicate fully-qualified type names in two files: the later file wins (dict.update) *)
Example ex_dup_type :
  lookup_last (s2z ".p.M")
    (types_entries [File (s2z "a.proto") (s2z "p") [] [M "M" []] [];
                    File (s2z "b.proto") (s2z "p") [] [M "M" []] []]) = Some (s2z "b_pb2.M").
Proof. vm_compute. reflexivity. Qed.

(* D31: a -> b -(import public)-> c; a's service uses c.M.  The plugin never reads
   public_dependency, so the model's file record has no such field: b simply depends on c. *)
Definition wit_public : request :=
  Request [ File (s2z "c.proto") (s2z "c") [] [M "M" []] [];
            File (s2z "b.proto") (s2z "b") [s2z "c.proto"] [M "B" []] [];
            File (s2z "a.proto") (s2z "a") [s2z "b.proto"] [M "A" []]
                 [Service (s2z "S") [me "Foo" false false ".a.A" ".c.M"]] ]
          [s2z "a.proto"].
Definition wit_public_file : file :=
  File (s2z "a.proto") (s2z "a") [s2z "b.proto"] [M "A" []]
       [Service (s2z "S") [me "Foo" false false ".a.A" ".c.M"]].
Definition wit_public_module : amodule :=
  AModule (s2z "a.proto")
    [s2z "abc"; s2z "typing"; s2z "grpclib.const"; s2z "grpclib.client"; s2z "b_pb2"; s2z "a_pb2"]
    [s2z "grpclib.server"]
    [AService (s2z "S") [s2z "Foo"]
       [MapEntry (s2z "/a.S/Foo") (s2z "Foo") (s2z "UNARY_UNARY") (s2z "a_pb2.A") (s2z "c_pb2.M")]
       [StubEntry (s2z "Foo") (s2z "UnaryUnaryMethod") (s2z "/a.S/Foo") (s2z "a_pb2.A") (s2z "c_pb2.M")]].

Example wit_public_facts :
  unique_typesb (r_files wit_public) = true /\
  nodup_strb (map f_name (r_files wit_public)) = true /\
  get_proto (r_files wit_public) (s2z "a.proto") = Some wit_public_file /\
  definition_clean_anyb (r_files wit_public) wit_public_file = true /\
  main wit_public = Ok [(s2z "a_grpc.py", wit_public_module)] /\
  syntax_ok wit_public_module = true /\ modelled wit_public_module = true /\
  exec_module wit_public_module =
    Ok [ (s2z "SBase", CBase (EBase [s2z "Foo"] (Err ENameError)));
         (s2z "SStub", CStub (EStub (Err ENameError))) ].
Proof. vm_compute. repeat split; reflexivity. Qed.

(* D32: a Python keyword as RPC name (a valid proto identifier) *)
Definition wit_keyword : request :=
  Request [File (s2z "nopkg") [] [] [M "M2" []]
             [Service (s2z "S") [me "class" false false ".M2" ".M2"]]] [s2z "nopkg"].

Example wit_keyword_facts :
  ident_shape (s2z "class") = true /\
  match main wit_keyword with
  | Ok [(_, am)] => exec_module am = Err ESyntaxError
  | _ => False
  end.
Proof. vm_compute. split; reflexivity. Qed.

(* D33: an RPC name with two leading underscores *)
Definition wit_private : request :=
  Request [File (s2z "a.proto") [] [] [M "M" []]
             [Service (s2z "S") [me "__Foo" false false ".M" ".M"]]] [s2z "a.proto"].

Example wit_private_facts :
  ident_shape (s2z "__Foo") = true /\
  match main wit_private with
  | Ok [(_, am)] =>
      syntax_ok am = true /\ modelled am = true /\
      match exec_module am with
      | Ok [(_, CBase b); (_, CStub st)] =>
          eb_abstract b = [s2z "_SBase__Foo"] /\
          match es_attrs st with Ok attrs => map fst attrs = [s2z "_SStub__Foo"] | Err _ => False end
      | _ => False
      end
  | _ => False
  end.
Proof. vm_compute. repeat split; reflexivity. Qed.

(* the keyword table is CPython 3.12's keyword.kwlist *)
Example py_keywords_are :
  py_keywords = map s2z
  ["False"; "None"; "True"; "and"; "as"; "assert"; "async"; "await"; "break"; "class"; "continue";
   "def"; "del"; "elif"; "else"; "except"; "finally"; "for"; "from"; "global"; "if"; "import"; "in";
   "is"; "lambda"; "nonlocal"; "not"; "or"; "pass"; "raise"; "return"; "try"; "while"; "with";
   "yield"]%string.
Proof. vm_compute. reflexivity. Qed.

Example std_imports_are :
  std_imports = map s2z ["abc"; "typing"; "grpclib.const"; "grpclib.client"]%string /\
  guarded_imports = [s2z "grpclib.server"] /\ base_suffix = s2z "Base" /\ stub_suffix = s2z "Stub".
Proof. vm_compute. repeat split; reflexivity. Qed.

Fixpoint msg_idents (m : msg) : bool :=
  match m with Msg n ns => ident_shape n && forallb msg_idents ns end.

(* every name is a proto identifier (a letter or underscore, then letters, digits, underscores),
   packages are dotted identifiers *)
Definition proto_idents (req : request) : bool :=
  forallb (fun f =>
    (negb (nonempty (f_package f)) || forallb ident_shape (split_on 46 (f_package f))) &&
    forallb msg_idents (f_msgs f) &&
    forallb (fun s => ident_shape (sv_name s) && forallb (fun m => ident_shape (me_name m)) (sv_methods s))
            (f_services f)) (r_files req).

(* FULL (false): forall req mods nm, proto_idents req = true -> main req = Ok mods -> In nm mods ->
                 syntax_ok (snd nm) = true          -- "the generated module imports cleanly" *)
Lemma imports_cleanly_refuted :
  exists req mods nm, proto_idents req = true /\ unique_types (r_files req) /\
    main req = Ok mods /\ In nm mods /\ exec_module (snd nm) = Err ESyntaxError.
Proof.
  exists wit_keyword. eexists. eexists. split; [vm_compute; reflexivity|].
  split; [apply unique_typesb_sound; vm_compute; reflexivity|].
  split; [vm_compute; reflexivity|]. split; [left; reflexivity|]. vm_compute. reflexivity.
Qed.

(* FULL (false): C20_executed_module_partial with `definition_clean_any` (types declared in ANY file of the
   request, which is all protoc guarantees once `import public` is used) in place of
   `definition_clean` (own file or direct dependency) *)
Lemma executed_module_any_refuted :
  exists req mods g pf am,
    proto_idents req = true /\ unique_types (r_files req) /\ NoDup (map f_name (r_files req)) /\
    main req = Ok mods /\ In g (r_gen req) /\ get_proto (r_files req) g = Some pf /\
    definition_clean_any (r_files req) pf /\ In (out_file_name g, am) mods /\
    syntax_ok am = true /\ modelled am = true /\
    exec_module am = Ok [ (s2z "SBase", CBase (EBase [s2z "Foo"] (Err ENameError)));
                          (s2z "SStub", CStub (EStub (Err ENameError))) ].
Proof.
  exists wit_public, [(s2z "a_grpc.py", wit_public_module)], (s2z "a.proto"), wit_public_file, wit_public_module.
  destruct wit_public_facts as (Huniq & Hfiles & Hproto & Hclean & Hmain & Hsyn & Hmod & Hexec).
  split; [vm_compute; reflexivity|].
  split; [apply unique_typesb_sound; exact Huniq|]. split; [apply nodup_strb_sound; exact Hfiles|].
  split; [exact Hmain|]. split; [left; reflexivity|]. split; [exact Hproto|].
  split; [apply definition_clean_anyb_sound; exact Hclean|]. split; [left; vm_compute; reflexivity|].
  split; [exact Hsyn|]. split; [exact Hmod | exact Hexec].
Qed.

(* FULL (false): in the executed module the abstract methods and the stub attributes carry the
   declared RPC names, for every proto identifier as RPC name *)
Lemma declared_names_refuted :
  exists req mods nm b st attrs,
    proto_idents req = true /\ unique_types (r_files req) /\ main req = Ok mods /\ In nm mods /\
    syntax_ok (snd nm) = true /\ modelled (snd nm) = true /\
    exec_module (snd nm) = Ok [(s2z "SBase", CBase b); (s2z "SStub", CStub st)] /\
    es_attrs st = Ok attrs /\
    eb_abstract b = [s2z "_SBase__Foo"] /\ map fst attrs = [s2z "_SStub__Foo"] /\
    map as_abstract (a_classes (snd nm)) = [[s2z "__Foo"]].
Proof.
  exists wit_private. do 5 eexists. split; [vm_compute; reflexivity|].
  split; [apply unique_typesb_sound; vm_compute; reflexivity|].
  split; [vm_compute; reflexivity|]. split; [left; reflexivity|].
  cbn [snd].
  (* conjunct by conjunct: `repeat split` also splits an equation, that is, proves it by eq_refl and leaves
     its evaluation to the unifier and to Qed *)
  repeat (split; [vm_compute; reflexivity|]). vm_compute. reflexivity.
Qed.
