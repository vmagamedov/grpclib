(* C04 -- non-vacuity examples (all by vm_compute on the GENERATED client operations). *)
From Coq Require Import List Bool Arith ZArith.
From GV Require Import Model.StreamIR Model.StreamSem Model.GuardKernel Model.Termination
  Gen.StreamOps Proofs.C04Proofs.
Import ListNotations.

Definition mk o r e d dl stt v : cell :=
  {| c_op := o; c_reason := r; c_event := e; c_during := d; c_deadline := dl; c_status := stt;
     c_variant := v |}.

Definition path_of (o : cop) (c : cell) (fl : flags) : path :=
  match op_program client_ops o with
  | Some prog => match trace TRACE_FUEL client_ops (cell_cx c false false) 0 prog fl false with
                 | Some r => t_path r | None => [] end
  | None => []
  end.

Definition flags_after (o : cop) (c : cell) (fl : flags) : flags :=
  match op_program client_ops o with
  | Some prog => match trace TRACE_FUEL client_ops (cell_cx c false false) 0 prog fl false with
                 | Some r => t_fl r | None => fl end
  | None => fl
  end.

(* a history satisfying the hypotheses of C04_registered_call_ops_complete_partial: send_request runs to
   completion (the call is registered), send_message blocks for flow-control credit, recv_message
   blocks for the peer, the connection is lost, the two are rescheduled, then cancel() is started *)
Definition c0 : cell := mk KSm RWindow VLost true false StNone VaBase.
Definition fl1 : flags := flags_after KSr c0 no_flags.
Definition p_sr : path := path_of KSr c0 no_flags.
Definition p_sm : path := path_of KSm c0 fl1.
Definition p_rm : path := path_of KRm c0 fl1.
Definition p_ca : path := path_of KCa c0 fl1.

Definition history : list slabel :=
  [LNewCall false;
   LK 0 (Spawn p_sr); LK 0 (Run 0 (all_go p_sr));
   LK 0 (Spawn p_sm); LK 0 (Run 1 (decisions c0 p_sm));
   LK 0 (Spawn p_rm); LK 0 (Run 2 (decisions c0 p_rm));
   LConn CLost;
   LK 0 (Run 2 []); LK 0 (Run 1 []);
   LK 0 (Spawn p_ca); LK 0 (Run 3 (decisions c0 p_ca))].

Example history_ok : Forall (slabel_ok client_ops) history.
Proof.
  unfold history.
  repeat (constructor;
          [lazymatch goal with
           | |- slabel_ok _ (LK _ (Spawn _)) => apply in_paths_In; vm_compute; reflexivity
           | |- _ => exact I
           end|]).
  constructor.
Qed.

Example history_before_event :
  match nth_error (srun (firstn 7 history) []) 0 with
  | Some cl => (registered cl, map st (tasks (ck cl)), members (ck cl))
  | None => (false, [], [])
  end = (true, [Done RNormal; Blocked; Blocked], [2; 1]).
Proof. vm_compute. reflexivity. Qed.

Example history_result :
  match nth_error (srun history []) 0 with
  | Some cl => (hit cl, quiescent (ck cl), map (fun tk => (st tk, mark tk)) (tasks (ck cl)),
                members (ck cl))
  | None => (false, false, [], [])
  end = (true, true,
         [(Done RNormal, MBefore);
          (Done (RRaise (XWrap ETerminated)), MAtCancel);
          (Done (RRaise (XWrap ETerminated)), MAtCancel);
          (Done (RRaise (XWrap ETerminated)), MAfter)], []).
Proof. vm_compute. reflexivity. Qed.

Example ca_reaches_guard : first_enter p_ca = true.
Proof. vm_compute. reflexivity. Qed.

(* the regression input of the repaired defect D5: end() on a paused transport, then connection_lost *)
Example d5_end_paused_lost :
  let p := predict client_ops (mk KEn RPaused VLost true false StNone VaBase) in
  (p_setup p, p_blocked p, p_registered p, p_op p, p_ctx p)
  = (SOk, Some (SPrim PEnd), true, OTerminated, OTerminated).
Proof. vm_compute. reflexivity. Qed.

(* D6 through the two blocking reasons, and through send_message's implicit send_request *)
Example d6_write_ready :
  let p := predict client_ops (mk KSr RPaused VGoaway true false StNone VaBase) in
  (p_setup p, p_registered p, p_werr p, p_op p, p_late p) = (SOk, false, OOk, OPending, OPending).
Proof. vm_compute. reflexivity. Qed.

Example d6_stream_slot_deadline :
  let p := predict client_ops (mk KSr RSlot VClose true true StNone VaBase) in
  (p_setup p, p_registered p, p_werr p, p_op p, p_late p) = (SOk, false, OOk, OPending, OTimeout).
Proof. vm_compute. reflexivity. Qed.

Example d6_implicit :
  let p := predict client_ops (mk KSm RSlot VLost true false StNone VaImplicit) in
  (p_setup p, p_registered p, p_op p, d6_class (mk KSm RSlot VLost true false StNone VaImplicit) p)
  = (SOk, false, OPending, true).
Proof. vm_compute. reflexivity. Qed.

(* error upgrade: trailers with NOT_FOUND had arrived, then RST_STREAM: the blocked send_message gets
   StreamTerminatedError, the call gets GRPCError(5); nothing had arrived: StreamTerminatedError *)
Example upgrade_with_status :
  let p := predict client_ops (mk KSm RWindow VRst true false (StTrailers 5) VaBase) in
  (p_op p, p_ctx p) = (OTerminated, OGrpc 5).
Proof. vm_compute. reflexivity. Qed.

Example no_upgrade_without_status :
  let p := predict client_ops (mk KSm RWindow VRst true false StNone VaBase) in
  (p_op p, p_ctx p) = (OTerminated, OTerminated).
Proof. vm_compute. reflexivity. Qed.

Example upgrade_http_status :
  maybe_raise (Some {| h_ok := false; h_mapped := 14; h_gs := GMissing |}) None = Some 14%Z.
Proof. reflexivity. Qed.

Example ok_trailers_do_not_upgrade :
  aexit_outcome OTerminated (Some {| h_ok := true; h_mapped := 0; h_gs := GMissing |}) (Some (GCode 0))
  = OTerminated.
Proof. reflexivity. Qed.

(* context exit: blocked in the implicit finish when GOAWAY arrives; started after a reset *)
Example context_exit_blocked :
  let p := predict client_ops (mk KAx RSilent VGoaway true false StNone VaBase) in
  (p_blocked p, p_op p) = (Some (SPrim PRecvHeaders), OTerminated).
Proof. vm_compute. reflexivity. Qed.

Example context_exit_after_reset_with_status :
  let p := predict client_ops (mk KAx RSilent VRst false false StH503 VaBase) in
  p_ctx p = OGrpc 14.
Proof. vm_compute. reflexivity. Qed.

(* the number of syntactic paths the theorems range over *)
Example path_count : 80 <=? length (call_paths client_ops) = true.
Proof. vm_compute. reflexivity. Qed.
