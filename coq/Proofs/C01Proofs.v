(* Proofs for Props/C01.v: framing, Buffer refinement to a byte queue, in-order/intact delivery for
   every fragmentation and schedule, truncation, sender chunking, end-to-end composition. *)
From Coq Require Import ZArith List Bool Lia ZifyBool.
From GV Require Import Model.Framing Model.RecvBuffer Model.SendChunk.
Import ListNotations.
Open Scope Z_scope.

(* lia, told that zlen is the length of a list *)
Ltac zlia := unfold zlen in *; lia.

Lemma zlen_nil {A} : zlen (@nil A) = 0.
Proof. reflexivity. Qed.

Lemma zlen_nonneg {A} (l : list A) : 0 <= zlen l.
Proof. zlia. Qed.

Lemma zlen_cons {A} (a : A) l : zlen (a :: l) = 1 + zlen l.
Proof. unfold zlen. cbn [length]. lia. Qed.

Lemma zlen_app {A} (l1 l2 : list A) : zlen (l1 ++ l2) = zlen l1 + zlen l2.
Proof. unfold zlen. rewrite app_length. lia. Qed.

Lemma zlen_zero_nil {A} (l : list A) : zlen l = 0 -> l = [].
Proof. destruct l; [reflexivity|]. rewrite zlen_cons. zlia. Qed.

Lemma zlen_pos_of_nonnil {A} (l : list A) : l <> [] -> 0 < zlen l.
Proof. destruct l; [contradiction|]. rewrite zlen_cons. zlia. Qed.

Lemma zlen_firstn {A} (n : Z) (l : list A) : 0 <= n <= zlen l -> zlen (firstn (Z.to_nat n) l) = n.
Proof. intros H. unfold zlen in *. rewrite firstn_length. lia. Qed.

Lemma zlen_skipn {A} (n : Z) (l : list A) : 0 <= n <= zlen l -> zlen (skipn (Z.to_nat n) l) = zlen l - n.
Proof. intros H. unfold zlen in *. rewrite skipn_length. lia. Qed.

Lemma to_nat_zlen {A} (l : list A) : Z.to_nat (zlen l) = length l.
Proof. apply Nat2Z.id. Qed.

Lemma firstn_zlen_app {A} (l1 l2 : list A) : firstn (Z.to_nat (zlen l1)) (l1 ++ l2) = l1.
Proof. rewrite to_nat_zlen, firstn_app, Nat.sub_diag, firstn_all. apply app_nil_r. Qed.

Lemma skipn_zlen_app {A} (l1 l2 : list A) : skipn (Z.to_nat (zlen l1)) (l1 ++ l2) = l2.
Proof. rewrite to_nat_zlen, skipn_app, Nat.sub_diag, skipn_all. reflexivity. Qed.

Lemma firstn_app_le {A} (n : Z) (q p : list A) :
  n <= zlen q -> firstn (Z.to_nat n) (q ++ p) = firstn (Z.to_nat n) q.
Proof.
  intros H. rewrite firstn_app. replace (Z.to_nat n - length q)%nat with 0%nat by zlia.
  apply app_nil_r.
Qed.

Lemma skipn_app_le {A} (n : Z) (q p : list A) :
  n <= zlen q -> skipn (Z.to_nat n) (q ++ p) = skipn (Z.to_nat n) q ++ p.
Proof.
  intros H. rewrite skipn_app. replace (Z.to_nat n - length q)%nat with 0%nat by zlia.
  reflexivity.
Qed.

Lemma app_eq_prefix {A} (q p a b : list A) :
  q ++ p = a ++ b -> zlen a <= zlen q ->
  firstn (Z.to_nat (zlen a)) q = a /\ skipn (Z.to_nat (zlen a)) q ++ p = b.
Proof.
  intros E L. split.
  - rewrite <- (firstn_app_le _ q p L), E. apply firstn_zlen_app.
  - rewrite <- (skipn_app_le _ q p L), E. apply skipn_zlen_app.
Qed.

Lemma concat_app1 {A} (l : list (list A)) (x : list A) : concat (l ++ [x]) = concat l ++ x.
Proof. rewrite concat_app. cbn. rewrite app_nil_r. reflexivity. Qed.

Lemma be32_sum n : 0 <= n < max_len ->
  (((n / 16777216) mod 256 * 256 + (n / 65536) mod 256) * 256 + (n / 256) mod 256) * 256
  + n mod 256 = n.
Proof. unfold max_len. intros H. Z.div_mod_to_equations. lia. Qed.

Lemma be32_decode_be32 n : 0 <= n < max_len -> be32_decode (be32 n) = Some n.
Proof. intros H. unfold be32, be32_decode. f_equal. apply be32_sum, H. Qed.

Lemma be32_byte_range n : Forall (fun b => 0 <= b <= 255) (be32 n).
Proof.
  unfold be32. repeat constructor;
    (apply Z.mod_pos_bound || apply Z.lt_succ_r, Z.mod_pos_bound); reflexivity.
Qed.

Lemma be32_length n : zlen (be32 n) = 4.
Proof. reflexivity. Qed.

Lemma frame_length m : zlen (frame m) = 5 + zlen m.
Proof. unfold frame. rewrite zlen_cons, zlen_app, be32_length. lia. Qed.

Definition sizes_ok (ms : list bytes) : Prop := Forall (fun m => zlen m < max_len) ms.

Lemma parse_frames_aux_frames ms :
  sizes_ok ms ->
  forall fuel, (length ms <= fuel)%nat ->
  parse_frames_aux fuel (concat (map frame ms)) = Some ms.
Proof.
  induction 1 as [|m ms Hm Hms IH]; intros fuel Hf.
  - destruct fuel; reflexivity.
  - destruct fuel as [|fuel]; [cbn in Hf; lia|].
    cbn [map concat]. unfold frame at 1, be32. cbn [app parse_frames_aux Z.eqb].
    rewrite be32_sum by zlia.
    replace (zlen m <=? zlen (m ++ concat (map frame ms))) with true by (rewrite zlen_app; zlia).
    rewrite skipn_zlen_app, firstn_zlen_app, IH by (cbn in Hf; lia). reflexivity.
Qed.

Lemma concat_frames_length ms : (length ms <= length (concat (map frame ms)))%nat.
Proof.
  induction ms as [|m ms IH]; [cbn; lia|].
  cbn [map concat]. rewrite app_length. unfold frame at 1. cbn [length]. lia.
Qed.

Lemma parse_frames_roundtrip ms : sizes_ok ms -> parse_frames (concat (map frame ms)) = Some ms.
Proof. intros H. apply parse_frames_aux_frames; [assumption|apply concat_frames_length]. Qed.

Lemma send_frame_ok m : zlen m < max_len -> send_frame m = Some (frame m).
Proof. intros H. unfold send_frame. replace (zlen m <? max_len) with true by lia. reflexivity. Qed.

Lemma send_frame_too_long m : max_len <= zlen m -> send_frame m = None.
Proof. intros H. unfold send_frame. replace (zlen m <? max_len) with false by lia. reflexivity. Qed.

(* fill_get and finish thread the credits handed out so far through an accumulator: a result with c0
   put in front of its credits *)
Definition prepend_cr (c0 : list Z) (r : fill_res) : fill_res :=
  match r with
  | FBlocked ak asz cr => FBlocked ak asz (c0 ++ cr)
  | FDone un ak asz cr => FDone un ak asz (c0 ++ cr)
  end.

Definition prepend_out (c0 : list Z) (r : buf * rd_out * list Z) : buf * rd_out * list Z :=
  let '(s, o, c) := r in (s, o, c0 ++ c).

Lemma fill_get_cr n un : forall ak asz c0 cr,
  fill_get n un ak asz (c0 ++ cr) = prepend_cr c0 (fill_get n un ak asz cr).
Proof.
  induction un as [|it un IH]; intros ak asz c0 cr; cbn [fill_get]; [reflexivity|].
  destruct (i_ack it =? 0); [reflexivity|]. rewrite <- app_assoc.
  destruct (asz + zlen (i_data it) <? n); [apply IH|reflexivity].
Qed.

Lemma fill_get_blocked_app n un : forall more ak asz cr ak' asz' cr',
  fill_get n un ak asz cr = FBlocked ak' asz' cr' ->
  fill_get n (un ++ more) ak asz cr = fill_get n more ak' asz' cr'.
Proof.
  induction un as [|it un IH]; intros more ak asz cr ak' asz' cr' H; cbn [fill_get app] in *.
  - injection H as <- <- <-. reflexivity.
  - destruct (i_ack it =? 0); [discriminate|].
    destruct (asz + zlen (i_data it) <? n); [apply IH, H|discriminate].
Qed.

Lemma finish_cr n un ak asz e c0 cr :
  finish n un ak asz e (c0 ++ cr) = prepend_out c0 (finish n un ak asz e cr).
Proof.
  unfold finish.
  destruct (e && (asz =? 0)); [reflexivity|].
  destruct (asz <? n); [reflexivity|].
  destruct (take_chunks n ak) as [[o ak']|]; reflexivity.
Qed.

Lemma finish_not_blocked n un ak asz e cr s c : finish n un ak asz e cr <> (s, RBlocked, c).
Proof.
  unfold finish.
  destruct (e && (asz =? 0)); [discriminate|].
  destruct (asz <? n); [discriminate|].
  destruct (take_chunks n ak) as [[o ak']|]; discriminate.
Qed.

(* a reader suspended in get() for a read of n bytes: fewer than n bytes are in the deque and the
   queue was empty when it suspended (so it is empty, or something was put since) *)
Definition blocked_ok (n : Z) (s : buf) : Prop :=
  acked_size s < n /\ (eof_flag s = false \/ unacked s <> []).

Lemma read_resume_is_start n s : 0 < n -> blocked_ok n s -> read_resume n s = read_start n s.
Proof.
  intros Hn [Hl Ht]. unfold read_start, read_resume.
  replace (n <? 0) with false by lia. replace (n =? 0) with false by lia.
  replace (acked_size s <? n) with true by lia.
  replace (negb (eof_flag s) || negb (is_nil (unacked s))) with true; [reflexivity|].
  destruct Ht as [->|Ht]; [reflexivity|].
  destruct (unacked s); [contradiction|]. symmetry. apply orb_true_r.
Qed.

Lemma blocked_ok_put n s it e :
  acked_size s < n -> blocked_ok n (mk_buf (unacked s ++ [it]) (acked s) (acked_size s) e).
Proof. intros Hl. split; [assumption|]. right. cbn [unacked]. destruct (unacked s); discriminate. Qed.

Lemma read_start_blocked n s s1 c1 :
  read_start n s = (s1, RBlocked, c1) ->
  0 < n /\ acked_size s < n /\
  exists ak asz, fill_get n (unacked s) (acked s) (acked_size s) [] = FBlocked ak asz c1 /\
                 s1 = mk_buf [] ak asz (eof_flag s).
Proof.
  unfold read_start. intros H.
  destruct (n <? 0) eqn:E0; [discriminate|].
  destruct (n =? 0) eqn:E1; [discriminate|].
  destruct (negb (eof_flag s) || negb (is_nil (unacked s)));
    [|apply finish_not_blocked in H as []].
  destruct (acked_size s <? n) eqn:El; [|apply finish_not_blocked in H as []].
  destruct (fill_get n (unacked s) (acked s) (acked_size s) []) as [ak asz cr|un ak asz cr];
    cbn [after_fill] in H; [|apply finish_not_blocked in H as []].
  injection H as <- <-. repeat split; eauto; lia.
Qed.

(* add (of a frame that counts) and eof both put one item at the end of the queue *)
Lemma blocked_commutes_put n s ak asz c1 it e :
  0 < n -> acked_size s < n ->
  fill_get n (unacked s) (acked s) (acked_size s) [] = FBlocked ak asz c1 ->
  read_start n (mk_buf (unacked s ++ [it]) (acked s) (acked_size s) e) =
  prepend_out c1 (read_resume n (mk_buf [it] ak asz e)).
Proof.
  intros Hn Hl Hf. rewrite <- read_resume_is_start by auto using blocked_ok_put.
  unfold read_resume. cbn [unacked acked acked_size eof_flag].
  rewrite fill_get_blocked_app with (1 := Hf). rewrite <- (app_nil_r c1) at 1.
  rewrite fill_get_cr. destruct (fill_get n [it] ak asz []); [reflexivity|apply finish_cr].
Qed.

Lemma blocked_commutes_add n s s1 c1 d a :
  read_start n s = (s1, RBlocked, c1) ->
  read_start n (add d a s) = prepend_out c1 (read_resume n (add d a s1)).
Proof.
  intros H. destruct (read_start_blocked _ _ _ _ H) as (Hn & Hl & ak & asz & Hf & ->).
  unfold add. destruct (a =? 0).
  - (* frame ignored *)
    rewrite H. cbn. rewrite app_nil_r. reflexivity.
  - apply blocked_commutes_put; assumption.
Qed.

Lemma blocked_commutes_eof n s s1 c1 :
  read_start n s = (s1, RBlocked, c1) ->
  read_start n (eof s) = prepend_out c1 (read_resume n (eof s1)).
Proof.
  intros H. destruct (read_start_blocked _ _ _ _ H) as (Hn & Hl & ak & asz & Hf & ->).
  apply blocked_commutes_put; assumption.
Qed.

(* the queue holds live items (ack_size <> 0), followed -- exactly when the eof flag is set and the
   marker has not been consumed yet -- by the EOF marker as its last element *)
Fixpoint qshape (e : bool) (un : list item) : Prop :=
  match un with
  | [] => True
  | it :: un' => (i_ack it <> 0 /\ qshape e un' /\ (e = true -> un' <> [])) \/
                 (e = true /\ i_ack it = 0 /\ i_data it = [] /\ un' = [])
  end.

Definition inv (s : buf) : Prop :=
  acked_size s = zlen (concat (acked s)) /\ qshape (eof_flag s) (unacked s).

Lemma inv_init : inv buf_init.
Proof. split; [reflexivity|exact I]. Qed.

(* qshape e [it]: it may be the last item under flag e *)
Lemma qshape_put e un it : qshape false un -> qshape e [it] -> qshape e (un ++ [it]).
Proof.
  induction un as [|x un IH]; cbn [qshape app]; intros H Hit; [assumption|].
  destruct H as [(Hx & H & _)|[H _]]; [|discriminate].
  left. repeat split; [assumption|apply IH; assumption|]. intros _. destruct un; discriminate.
Qed.

Lemma inv_add d a s : inv s -> eof_flag s = false -> inv (add d a s).
Proof.
  intros [H1 H2] He. unfold add. destruct (a =? 0) eqn:Ea; [split; assumption|].
  split; cbn [acked acked_size eof_flag unacked]; [assumption|].
  rewrite He in *. apply qshape_put; [assumption|]. left. cbn. repeat split; [lia|discriminate].
Qed.

Lemma inv_eof s : inv s -> eof_flag s = false -> inv (eof s).
Proof.
  intros [H1 H2] He. split; cbn [eof acked acked_size eof_flag unacked]; [assumption|].
  rewrite He in *. apply qshape_put; [assumption|]. right. repeat split.
Qed.

Lemma abs_q_add d a s : zlen d <= a -> abs_q (add d a s) = abs_q s ++ d.
Proof.
  intros H. unfold add. destruct (a =? 0) eqn:Ea.
  - rewrite (zlen_zero_nil d) by zlia. symmetry. apply app_nil_r.
  - unfold abs_q. cbn [acked unacked]. rewrite map_app. cbn [map i_data]. rewrite concat_app1.
    apply app_assoc.
Qed.

Lemma abs_q_eof s : abs_q (eof s) = abs_q s.
Proof.
  unfold abs_q, eof. cbn [acked unacked]. rewrite map_app. cbn [map eof_marker i_data].
  rewrite concat_app1, !app_nil_r. reflexivity.
Qed.

Lemma take_chunks_spec ak : forall need,
  0 <= need <= zlen (concat ak) ->
  exists ak', take_chunks need ak = Some (firstn (Z.to_nat need) (concat ak), ak') /\
              concat ak' = skipn (Z.to_nat need) (concat ak).
Proof.
  induction ak as [|c ak IH]; intros need H; cbn [take_chunks concat] in *.
  - replace need with 0 by (cbn in H; lia). cbn. eauto.
  - destruct (0 <? need) eqn:E0; [|replace need with 0 by lia; cbn; eauto].
    rewrite zlen_app in H. destruct (zlen c <=? need) eqn:Ec.
    + destruct (IH (need - zlen c)) as (ak' & -> & Hk); [lia|]. exists ak'.
      rewrite firstn_app, skipn_app, (firstn_all2 c), (skipn_all2 c), Hk by zlia.
      replace (Z.to_nat need - length c)%nat with (Z.to_nat (need - zlen c)) by zlia. auto.
    + rewrite firstn_app_le, skipn_app_le by lia. eauto.
Qed.

(* one turn of the fill loop: the head of the queue goes to the end of the deque *)
Lemma move_item e it un ak asz :
  inv (mk_buf (it :: un) ak asz e) -> i_ack it <> 0 ->
  let s' := mk_buf un (ak ++ [i_data it]) (asz + zlen (i_data it)) e in
  inv s' /\ abs_q s' = abs_q (mk_buf (it :: un) ak asz e) /\ (e = true -> un <> []).
Proof.
  intros [Ha Hq] Hit. cbn [acked acked_size eof_flag unacked qshape] in *.
  destruct Hq as [(_ & Hq & Hne)|(_ & Hz & _)]; [|contradiction].
  split; [split|split; [|assumption]]; cbn [acked acked_size eof_flag unacked]; [|assumption|].
  - rewrite concat_app1, zlen_app. lia.
  - unfold abs_q. cbn [acked unacked map concat]. rewrite concat_app1, <- app_assoc. reflexivity.
Qed.

(* the fill loop moves a prefix of the queue to the deque; it blocks only if no marker is queued *)
Lemma fill_get_spec n s : forall cr,
  inv s -> acked_size s < n ->
  match fill_get n (unacked s) (acked s) (acked_size s) cr with
  | FBlocked ak' asz' _ =>
      let s' := mk_buf [] ak' asz' (eof_flag s) in
      inv s' /\ abs_q s' = abs_q s /\ asz' < n /\ (eof_flag s = true -> unacked s = [])
  | FDone un' ak' asz' _ =>
      let s' := mk_buf un' ak' asz' (eof_flag s) in
      inv s' /\ abs_q s' = abs_q s /\ (n <= asz' \/ (eof_flag s = true /\ un' = []))
  end.
Proof.
  destruct s as [un ak asz e]. cbn [unacked acked acked_size eof_flag]. revert ak asz.
  induction un as [|it un IH]; intros ak asz cr Hi Hl; cbn [fill_get]; [auto|].
  destruct (i_ack it =? 0) eqn:Eit.
  - (* the marker: by qshape it is the last item and carries no data *)
    destruct Hi as [Ha Hq]. cbn [acked acked_size eof_flag unacked qshape] in Ha, Hq.
    destruct Hq as [(Hit & _)|(-> & _ & Hd & ->)]; [lia|].
    split; [split; [assumption|exact I]|]. split; [|auto].
    unfold abs_q. cbn [acked unacked map concat]. rewrite Hd. reflexivity.
  - destruct (move_item e it un ak asz Hi ltac:(lia)) as (Hi' & <- & Hne).
    destruct (asz + zlen (i_data it) <? n) eqn:El; [|split; [assumption|]; split; [reflexivity|lia]].
    specialize (IH _ _ (cr ++ [i_ack it]) Hi' ltac:(lia)).
    destruct (fill_get n un _ _ _); [|assumption].
    destruct IH as (Hi2 & Hq2 & Hl2 & Hemp). repeat (split; [assumption|]).
    intros He. destruct (Hne He (Hemp He)).
Qed.

Lemma aread_zero q c : aread 0 q c = (q, RBytes []).
Proof. reflexivity. Qed.

Lemma aread_enough n q c :
  0 <= n <= zlen q -> aread n q c = (skipn (Z.to_nat n) q, RBytes (firstn (Z.to_nat n) q)).
Proof.
  intros H. unfold aread. replace (n <? 0) with false by lia.
  destruct (n =? 0) eqn:E; [replace n with 0 by lia; reflexivity|].
  replace (n <=? zlen q) with true by lia. reflexivity.
Qed.

Lemma aread_short n q c :
  zlen q < n ->
  aread n q c = (q, if c then (if zlen q =? 0 then RBytes [] else RErr EAssert) else RBlocked).
Proof.
  intros H. unfold aread.
  replace (n <? 0) with false by zlia. replace (n =? 0) with false by zlia.
  replace (n <=? zlen q) with false by lia. destruct c; [destruct (zlen q =? 0)|]; reflexivity.
Qed.

Lemma aread_err n q c q' e : aread n q c = (q', RErr e) -> e = EAssert.
Proof.
  unfold aread. intros H.
  destruct (n <? 0); [injection H as _ <-; reflexivity|].
  destruct (n =? 0); [discriminate|].
  destruct (n <=? zlen q); [discriminate|].
  destruct c; [|discriminate]. destruct (zlen q =? 0); [discriminate|].
  injection H as _ <-. reflexivity.
Qed.

Lemma aread_length n q c q' b :
  0 <= n -> aread n q c = (q', RBytes b) -> b = [] \/ zlen b = n.
Proof.
  intros Hn H. unfold aread in H.
  replace (n <? 0) with false in H by lia.
  destruct (n =? 0); [injection H as _ <-; auto|].
  destruct (n <=? zlen q) eqn:E.
  - injection H as _ <-. right. apply zlen_firstn. lia.
  - destruct c; [|discriminate]. destruct (zlen q =? 0); [|discriminate]. injection H as _ <-. auto.
Qed.

(* r, the outcome of a concrete read of n bytes, is the read of n bytes on the byte queue q with
   closed flag e *)
Definition read_ok (n : Z) (q : bytes) (e : bool) (r : buf * rd_out * list Z) : Prop :=
  let '(s', o, _) := r in
  inv s' /\ eof_flag s' = e /\ aread n q e = (abs_q s', o) /\
  (o = RBlocked -> e = false /\ unacked s' = [] /\ acked_size s' < n).

(* the part after the fill loop, when the bookkeeping is right and nothing is queued behind a short
   deque *)
Lemma finish_ok n s cr :
  0 < n -> inv s -> (n <= acked_size s \/ (eof_flag s = true /\ unacked s = [])) ->
  read_ok n (abs_q s) (eof_flag s) (finish n (unacked s) (acked s) (acked_size s) (eof_flag s) cr).
Proof.
  destruct s as [un ak asz e]. cbn [unacked acked acked_size eof_flag]. intros Hn [Ha Hq] Hc.
  cbn [unacked acked acked_size eof_flag] in Ha, Hq. unfold finish.
  destruct (Z_le_gt_dec n asz) as [Hle|Hgt].
  - replace (asz =? 0) with false by lia. rewrite andb_false_r. replace (asz <? n) with false by lia.
    destruct (take_chunks_spec ak n ltac:(lia)) as (ak' & -> & Hk).
    unfold read_ok, abs_q, inv. cbn [unacked acked acked_size eof_flag].
    rewrite aread_enough by (rewrite zlen_app; zlia).
    rewrite firstn_app_le, skipn_app_le, Hk, zlen_skipn by lia.
    repeat split; assumption || discriminate || lia.
  - (* the deque is short: the stream is closed, the read returns b'' or raises *)
    destruct Hc as [Hc|[-> ->]]; [lia|]. cbn [andb].
    destruct (asz =? 0) eqn:Ez; [|replace (asz <? n) with true by lia];
      unfold read_ok, abs_q, inv; cbn [unacked acked acked_size eof_flag map concat];
      rewrite app_nil_r, aread_short, <- Ha, Ez by lia; repeat split; assumption || discriminate.
Qed.

Lemma read_start_ok n s : inv s -> read_ok n (abs_q s) (eof_flag s) (read_start n s).
Proof.
  intros Hi. unfold read_start.
  destruct (n <? 0) eqn:E0; [|destruct (n =? 0) eqn:E1];
    [unfold read_ok, aread; rewrite E0, ?E1; repeat split; apply Hi || congruence..|].
  destruct (negb (eof_flag s) || negb (is_nil (unacked s))) eqn:Et.
  2:{ (* closed and nothing queued: the fill loop is skipped *)
      apply finish_ok; [lia|assumption|right].
      destruct (eof_flag s), (unacked s); try discriminate. auto. }
  destruct (acked_size s <? n) eqn:El; [|apply finish_ok; [lia|assumption|left; lia]].
  pose proof (fill_get_spec n s [] Hi ltac:(lia)) as Hs.
  destruct (fill_get n (unacked s) (acked s) (acked_size s) []) as [ak asz c|un ak asz c];
    cbn [after_fill].
  - (* blocked in get(): the queue held no marker, so by the entry test the flag is off *)
    destruct Hs as (Hi' & <- & Hl' & Hemp).
    assert (He : eof_flag s = false).
    { destruct (eof_flag s); [|reflexivity]. rewrite (Hemp eq_refl) in Et. discriminate. }
    rewrite He in *. destruct Hi' as [Ha' _]. cbn [acked acked_size] in Ha'.
    unfold read_ok, abs_q, inv. cbn [unacked acked acked_size eof_flag map concat].
    rewrite app_nil_r, aread_short by lia. repeat split; assumption.
  - destruct Hs as (Hi' & <- & Hc').
    apply (finish_ok n (mk_buf un ak asz (eof_flag s)) c); [lia|assumption..].
Qed.

Definition phase_ok (ph : phase) (s : buf) : Prop :=
  match ph with
  | PIdle => True
  | PMeta => blocked_ok 5 s
  | PBody len => blocked_ok len s
  end.

Lemma phase_ok_put ph s it e :
  phase_ok ph s -> phase_ok ph (mk_buf (unacked s ++ [it]) (acked s) (acked_size s) e).
Proof.
  destruct ph; cbn [phase_ok]; trivial; intros [Hl _]; apply blocked_ok_put, Hl.
Qed.

Lemma phase_ok_add ph d a s : phase_ok ph s -> phase_ok ph (add d a s).
Proof. unfold add. destruct (a =? 0); [trivial|apply phase_ok_put]. Qed.

Lemma eof_flag_add d a s : eof_flag (add d a s) = eof_flag s.
Proof. unfold add. destruct (a =? 0); reflexivity. Qed.

(* r, the outcome of one scheduling of the concrete receiver, is spec, the outcome on the byte
   queue (closed flag e) *)
Definition recv_ok (spec : bytes * phase * option result) (e : bool)
    (r : buf * phase * option result * list Z) : Prop :=
  let '(s', ph', res, _) := r in
  inv s' /\ phase_ok ph' s' /\ eof_flag s' = e /\ spec = (abs_q s', ph', res).

Lemma recv_body_ok len cr0 s :
  inv s ->
  recv_ok (arecv_body len (aread len (abs_q s) (eof_flag s))) (eof_flag s)
          (recv_body len cr0 (read_start len s)).
Proof.
  intros Hi. pose proof (read_start_ok len s Hi) as Hr.
  destruct (read_start len s) as [[s1 o1] c1]. destruct Hr as (Hi1 & He & -> & Hb).
  destruct o1 as [b| |e]; cbn [recv_body arecv_body recv_ok phase_ok]; auto.
  destruct (Hb eq_refl) as (Hf & _ & Hl). repeat (split; [assumption|]). split; [|auto].
  split; [assumption|left; congruence].
Qed.

Lemma recv_meta_ok s :
  inv s ->
  recv_ok (arecv_meta (eof_flag s) (aread 5 (abs_q s) (eof_flag s))) (eof_flag s)
          (recv_meta (read_start 5 s)).
Proof.
  intros Hi. pose proof (read_start_ok 5 s Hi) as Hr.
  destruct (read_start 5 s) as [[s1 o1] c1]. destruct Hr as (Hi1 & He & -> & Hb).
  destruct o1 as [[|flag lenb]| |e]; cbn [recv_meta arecv_meta recv_ok phase_ok]; auto.
  - destruct (negb (flag =? 0)); [cbn; auto|].
    destruct (be32_decode lenb) as [len|]; [|cbn; auto].
    rewrite <- He. apply recv_body_ok, Hi1.
  - destruct (Hb eq_refl) as (Hf & _ & Hl). repeat (split; [assumption|]). split; [|auto].
    split; [assumption|left; congruence].
Qed.

Lemma recv_step_ok ph s :
  inv s -> phase_ok ph s ->
  recv_ok (arecv ph (abs_q s) (eof_flag s)) (eof_flag s) (recv_step ph s).
Proof.
  intros Hi Hp.
  assert (Hn : forall n, blocked_ok n s -> 0 < n) by (intros n [Hl _]; destruct Hi as [Ha _]; zlia).
  destruct ph; cbn [recv_step arecv phase_ok] in *;
    rewrite ?read_resume_is_start by auto; auto using recv_meta_ok, recv_body_ok.
Qed.

Definition rinv (st : rstate) : Prop := inv (r_buf st) /\ phase_ok (r_phase st) (r_buf st).

Lemma rinv_init : rinv rstate_init.
Proof. split; [apply inv_init|exact I]. Qed.

Lemma step_sim o ops st :
  rinv st -> wf_ops (eof_flag (r_buf st)) (o :: ops) ->
  rinv (fst (step o st)) /\ wf_ops (eof_flag (r_buf (fst (step o st)))) ops /\
  astep o (absr st) = (absr (fst (step o st)), snd (step o st)).
Proof.
  destruct st as [s ph dn]. intros [Hi Hp] Hw. unfold absr.
  destruct o as [d a| |];
    cbn [step step_raw astep wf_ops fst snd r_buf r_phase r_done a_q a_closed a_phase a_done] in *.
  - destruct Hw as (Hc & Hda & Hw). rewrite abs_q_add, eof_flag_add, Hc by assumption.
    split; [split|auto]; cbn [r_buf r_phase]; auto using inv_add, phase_ok_add.
  - destruct Hw as (Hc & Hw). rewrite abs_q_eof.
    split; [split|auto]; cbn [r_buf r_phase]; auto using inv_eof. apply phase_ok_put, Hp.
  - destruct dn; [split; [split|split]; auto|].
    pose proof (recv_step_ok ph s Hi Hp) as Hk.
    destruct (recv_step ph s) as [[[s1 ph1] res1] c1]. destruct Hk as (Hi1 & Hp1 & He1 & ->).
    destruct res1 as [[m| |e| ]|]; cbn; rewrite He1; (split; [split|split]; auto).
Qed.

Lemma run_cons o ops st :
  run (o :: ops) st =
  (fst (run ops (fst (step o st))), snd (step o st) ++ snd (run ops (fst (step o st)))).
Proof. unfold run. cbn [run_with]. destruct (step o st), (run_with step ops _). reflexivity. Qed.

Lemma arun_cons o ops a :
  arun (o :: ops) a =
  (fst (arun ops (fst (astep o a))), snd (astep o a) ++ snd (arun ops (fst (astep o a)))).
Proof. cbn [arun]. destruct (astep o a), (arun ops _). reflexivity. Qed.

Lemma run_sim ops : forall st,
  rinv st -> wf_ops (eof_flag (r_buf st)) ops ->
  rinv (fst (run ops st)) /\ arun ops (absr st) = (absr (fst (run ops st)), snd (run ops st)).
Proof.
  induction ops as [|o ops IH]; intros st Hr Hw; [split; [assumption|reflexivity]|].
  destruct (step_sim o ops st Hr Hw) as (Hr1 & Hw1 & Ha).
  destruct (IH _ Hr1 Hw1) as [Hr2 Ha2].
  rewrite run_cons, arun_cons, Ha. cbn [fst snd]. rewrite Ha2. auto.
Qed.

Lemma arecv_body_fail len q c q' ph' e :
  arecv_body len (aread len q c) = (q', ph', Some (RFail e)) -> e = EAssert.
Proof.
  destruct (aread len q c) as [q1 [b| |e1]] eqn:E; cbn [arecv_body]; intros H.
  - unfold body_done in H. destruct (zlen b =? len); congruence.
  - discriminate.
  - apply aread_err in E. congruence.
Qed.

(* struct.error cannot come out of recv_message: read(5) returns 0 or 5 bytes *)
Lemma arecv_fail ph q c q' ph' e : arecv ph q c = (q', ph', Some (RFail e)) -> e = EAssert.
Proof.
  assert (Hm : arecv_meta c (aread 5 q c) = (q', ph', Some (RFail e)) -> e = EAssert).
  { destruct (aread 5 q c) as [q1 [b| |e1]] eqn:E; cbn [arecv_meta]; intros H.
    - destruct b as [|flag lenb]; [discriminate|].
      destruct (negb (flag =? 0)); [discriminate|].
      destruct (aread_length 5 _ _ _ _ ltac:(lia) E) as [Hb|Hb]; [discriminate|].
      destruct lenb as [|b3 [|b2 [|b1 [|b0 [|x lenb]]]]];
        try (exfalso; unfold zlen in Hb; cbn [length] in Hb; lia).
      apply arecv_body_fail in H. exact H.
    - discriminate.
    - apply aread_err in E. congruence. }
  destruct ph; cbn [arecv]; [assumption..|apply arecv_body_fail].
Qed.

Lemma astep_fail o a e : In (RFail e) (snd (astep o a)) -> e = EAssert.
Proof.
  destruct o; cbn [astep snd]; [intros []..|]. destruct (a_done a); [intros []|].
  destruct (arecv (a_phase a) (a_q a) (a_closed a)) as [[q1 ph1] [r|]] eqn:Er; [|intros []].
  intros Hin. assert (r = RFail e) as -> by (destruct r, Hin as [Hin|[]]; congruence).
  apply arecv_fail in Er. exact Er.
Qed.

Lemma arun_fail ops : forall a e, In (RFail e) (snd (arun ops a)) -> e = EAssert.
Proof.
  induction ops as [|o ops IH]; intros a e; [intros []|]. rewrite arun_cons. cbn [snd].
  intros Hin. apply in_app_or in Hin. destruct Hin; eauto using astep_fail.
Qed.

(* a non-empty proper prefix of the frame of some message: "the stream ends inside a message" *)
Definition inside_a_frame (p : bytes) : Prop :=
  exists m' rest, zlen m' < max_len /\ p <> [] /\ rest <> [] /\ p ++ rest = frame m'.

(* what may follow the complete frames: nothing, or a non-empty proper prefix of a frame *)
Definition trunc_tail (tail : bytes) : Prop := tail = [] \/ inside_a_frame tail.

Definition terminal (tail : bytes) : result :=
  match tail with [] => REos | _ :: _ => RFail EAssert end.

Lemma terminal_nonnil tail : tail <> [] -> terminal tail = RFail EAssert.
Proof. destruct tail; [contradiction|reflexivity]. Qed.

Lemma terminal_inside p : inside_a_frame p -> terminal p = RFail EAssert.
Proof. intros (m' & rest & _ & Hne & _). apply terminal_nonnil, Hne. Qed.

(* a read of the chunk hd that the stream q ++ X starts with, when all of it is queued *)
Lemma aread_chunk q X hd tl c :
  q ++ X = hd ++ tl -> zlen hd <= zlen q ->
  exists q', aread (zlen hd) q c = (q', RBytes hd) /\ q' ++ X = tl.
Proof.
  intros E L. destruct (app_eq_prefix q X hd tl E L) as [Hf Hs].
  rewrite aread_enough, Hf by zlia. eauto.
Qed.

Lemma meta_short q c :
  zlen q < 5 ->
  arecv_meta c (aread 5 q c) =
  if c then (q, PIdle, Some (if zlen q =? 0 then REos else RFail EAssert)) else (q, PMeta, None).
Proof.
  intros H. rewrite aread_short by assumption.
  destruct c; [|reflexivity]. destruct (zlen q =? 0); reflexivity.
Qed.

Lemma meta_header q X (m : bytes) Y c :
  q ++ X = (0 :: be32 (zlen m)) ++ Y -> zlen m < max_len -> 5 <= zlen q ->
  exists q', arecv_meta c (aread 5 q c) = arecv_body (zlen m) (aread (zlen m) q' c) /\
             q' ++ X = Y.
Proof.
  intros E Hm Hq. destruct (aread_chunk q X (0 :: be32 (zlen m)) Y c E Hq) as (q' & Hr & Hq').
  change (zlen (0 :: be32 (zlen m))) with 5 in Hr. rewrite Hr. exists q'. split; [|assumption].
  cbn [arecv_meta Z.eqb negb]. rewrite be32_decode_be32 by zlia. reflexivity.
Qed.

Lemma body_short q len c :
  zlen q < len ->
  arecv_body len (aread len q c) =
  if c then (q, PIdle, Some (RFail EAssert)) else (q, PBody len, None).
Proof.
  intros H. rewrite aread_short by assumption. destruct c; [|reflexivity].
  destruct (zlen q =? 0) eqn:E; [|reflexivity].
  cbn [arecv_body]. unfold body_done. rewrite zlen_nil. replace (0 =? len) with false by lia.
  reflexivity.
Qed.

(* u, the unread part of the stream (queued or still to arrive), is what a receiver in phase ph has
   before it when the frames of ms, then tail, remain.  Inside the truncated frame only this is kept:
   u falls short of the len bytes awaited, and tail is not empty (so that terminal tail is the error) *)
Definition stream_at (tail : bytes) (ms : list bytes) (ph : phase) (u : bytes) : Prop :=
  match ph with
  | PIdle | PMeta => u = concat (map frame ms) ++ tail
  | PBody len =>
      (exists m ms', ms = m :: ms' /\ len = zlen m /\ u = m ++ concat (map frame ms') ++ tail) \/
      (ms = [] /\ tail <> [] /\ exists m' rest, len = zlen m' /\ rest <> [] /\ u ++ rest = m')
  end.

(* r, the outcome of one scheduling of the receiver, with respect to the stream: blocked while the
   stream is open, or the next message, or the terminal outcome once the stream is closed *)
Definition advances (tail : bytes) (ms : list bytes) (pending : bytes) (c : bool)
    (r : bytes * phase * option result) : Prop :=
  let '(q1, ph1, res) := r in
  match res with
  | None => c = false /\ stream_at tail ms ph1 (q1 ++ pending)
  | Some x =>
      (exists m ms', ms = m :: ms' /\ x = RMsg m /\ stream_at tail ms' ph1 (q1 ++ pending)) \/
      (ms = [] /\ c = true /\ x = terminal tail)
  end.

Lemma body_stream tail ms len q pending c :
  (c = true -> pending = []) -> stream_at tail ms (PBody len) (q ++ pending) ->
  advances tail ms pending c (arecv_body len (aread len q c)).
Proof.
  intros Hc [(m & ms' & -> & -> & E)|(-> & Hne & m' & rest & -> & Hr & E)].
  - destruct (Z_le_gt_dec (zlen m) (zlen q)) as [Hle|Hgt].
    + destruct (aread_chunk q pending m _ c E Hle) as (q' & -> & Hq').
      cbn [arecv_body advances]. unfold body_done. rewrite Z.eqb_refl. left. exists m, ms'. auto.
    + rewrite body_short by lia. destruct c.
      * exfalso. rewrite (Hc eq_refl), app_nil_r in E. rewrite E, zlen_app in Hgt. zlia.
      * split; [reflexivity|]. left. exists m, ms'. auto.
  - rewrite body_short by (rewrite <- E, !zlen_app; pose proof (zlen_pos_of_nonnil rest Hr); zlia).
    destruct c.
    + right. rewrite terminal_nonnil by assumption. auto.
    + split; [reflexivity|]. right. eauto 8.
Qed.

Lemma meta_stream tail ms q pending c :
  sizes_ok ms -> trunc_tail tail -> (c = true -> pending = []) ->
  q ++ pending = concat (map frame ms) ++ tail ->
  advances tail ms pending c (arecv_meta c (aread 5 q c)).
Proof.
  intros Hms Ht Hc E. destruct (Z_lt_ge_dec (zlen q) 5) as [Hlt|Hge].
  - rewrite meta_short by assumption. destruct c; [|split; auto].
    (* closed with fewer than 5 bytes: no frame is left, and q is the tail *)
    right. rewrite (Hc eq_refl), app_nil_r in E. subst q. destruct ms as [|m ms'].
    + destruct tail; repeat split.
    + exfalso. cbn [map concat] in Hlt. rewrite !zlen_app, frame_length in Hlt. zlia.
  - destruct ms as [|m ms']; cbn [map concat app] in E.
    + destruct Ht as [->|(m' & rest & Hm' & Hne & Hr & Hfr)].
      * exfalso. apply app_eq_nil in E as [-> _]. cbn in Hge. lia.
      * destruct (meta_header q (pending ++ rest) m' m' c) as (q' & -> & Hq'); [|assumption|lia|].
        { rewrite app_assoc, E. exact Hfr. }
        apply body_stream; [assumption|]. right. rewrite app_assoc in Hq'. eauto 8.
    + inversion Hms as [|? ? Hm _]; subst.
      destruct (meta_header q pending m (m ++ concat (map frame ms') ++ tail) c)
        as (q' & -> & Hq'); [|assumption|lia|].
      { rewrite E. unfold frame. cbn [app]. rewrite <- !app_assoc. reflexivity. }
      apply body_stream; [assumption|]. left. exists m, ms'. auto.
Qed.

Lemma arecv_stream tail ms ph q pending c :
  sizes_ok ms -> trunc_tail tail -> (c = true -> pending = []) ->
  stream_at tail ms ph (q ++ pending) -> advances tail ms pending c (arecv ph q c).
Proof.
  intros Hms Ht Hc Hs. destruct ph; cbn [arecv]; auto using meta_stream, body_stream.
Qed.

(* what the consumer has still to be given *)
Definition expect (tail : bytes) (dn : bool) (ms : list bytes) : list result :=
  if dn then [] else map RMsg ms ++ [terminal tail].

(* a: state of the byte-queue receiver; pending: bytes of the stream not delivered yet; c: END_STREAM
   delivered.  The unread stream (queue ++ pending) is what remains of frames ms ++ tail. *)
Definition follows (tail : bytes) (ms : list bytes) (pending : bytes) (c : bool) (a : astate)
  : Prop :=
  a_closed a = c /\
  (a_done a = false -> sizes_ok ms /\ stream_at tail ms (a_phase a) (a_q a ++ pending)).

Definition mk_a (q : bytes) (c : bool) (ph : phase) (d : bool) := mk_astate q c ph d.

(* one scheduling of the receiver hands over the head of what is expected, or nothing; once the
   stream is closed it is never nothing *)
Lemma astep_recv_stream tail ms pending c a :
  trunc_tail tail -> (c = true -> pending = []) -> follows tail ms pending c a ->
  exists ms', follows tail ms' pending c (fst (astep ORecv a)) /\
    expect tail (a_done a) ms =
      snd (astep ORecv a) ++ expect tail (a_done (fst (astep ORecv a))) ms' /\
    (c = true -> a_done a = false -> snd (astep ORecv a) <> []).
Proof.
  intros Ht Hc [Hcl Hs]. destruct a as [q cl ph dn].
  cbn [a_q a_closed a_phase a_done astep] in *. subst cl. destruct dn.
  { exists ms. repeat split; auto; discriminate. }
  destruct (Hs eq_refl) as [Hms Hst].
  pose proof (arecv_stream tail ms ph q pending c Hms Ht Hc Hst) as Hr.
  destruct (arecv ph q c) as [[q1 ph1] [x|]]; cbn [advances] in Hr.
  - destruct Hr as [(m & ms' & -> & -> & Hst')|(-> & -> & ->)].
    + exists ms'. inversion Hms; subst. repeat split; auto; discriminate.
    + exists []. destruct tail; repeat split; auto; discriminate.
  - destruct Hr as [-> Hst']. exists ms. repeat split; auto; discriminate.
Qed.

Lemma wf_closed_no_payload ops : wf_ops true ops -> payloads ops = [] /\ ended ops = false.
Proof.
  induction ops as [|[d a| |] ops IH]; cbn [wf_ops payloads ended]; auto;
    intros [Hw _]; discriminate.
Qed.

(* what a legal history returns, followed by what is then still expected, is what was expected *)
Lemma arun_stream tail ops : trunc_tail tail -> forall c rest ms a,
  wf_ops c ops -> (c || ended ops = true -> rest = []) ->
  follows tail ms (concat (payloads ops) ++ rest) c a ->
  exists ms', follows tail ms' rest (c || ended ops) (fst (arun ops a)) /\
    expect tail (a_done a) ms = snd (arun ops a) ++ expect tail (a_done (fst (arun ops a))) ms'.
Proof.
  intros Ht. induction ops as [|o ops IH]; intros c rest ms a Hw He Hf.
  { exists ms. cbn in *. rewrite orb_false_r. auto. }
  rewrite arun_cons. destruct o as [d x| |]; cbn [wf_ops payloads ended concat] in *.
  - destruct Hw as (-> & _ & Hw).
    apply (IH false rest ms (mk_astate (a_q a ++ d) (a_closed a) (a_phase a) (a_done a)) Hw He).
    destruct Hf as [Hcl Hs]. split; [assumption|]. cbn [a_q a_phase a_done].
    rewrite <- !app_assoc in *. assumption.
  - destruct Hw as (-> & Hw). rewrite (He eq_refl) in *.
    apply (IH true [] ms (mk_astate (a_q a) true (a_phase a) (a_done a)) Hw (fun _ => eq_refl)).
    split; [reflexivity|apply Hf].
  - assert (Hc : c = true -> concat (payloads ops) ++ rest = []).
    { intros ->. destruct (wf_closed_no_payload ops Hw) as [-> _]. apply He. reflexivity. }
    destruct (astep_recv_stream tail ms _ c a Ht Hc Hf) as (ms1 & Hf1 & E1 & _).
    destruct (IH c rest ms1 _ Hw He Hf1) as (ms2 & Hf2 & E2).
    exists ms2. split; [assumption|]. rewrite E1, E2. apply app_assoc.
Qed.

(* liveness: once everything and END_STREAM have been delivered, every scheduling of the receiver
   returns something; as many calls as results are expected return all of it *)
Lemma arun_drain tail k : trunc_tail tail -> forall ms a,
  follows tail ms [] true a -> (length (expect tail (a_done a) ms) <= k)%nat ->
  snd (arun (repeat ORecv k) a) = expect tail (a_done a) ms.
Proof.
  intros Ht. induction k as [|k IH]; intros ms a Hf Hk.
  { destruct (expect tail (a_done a) ms); [reflexivity|cbn in Hk; lia]. }
  cbn [repeat]. rewrite arun_cons. cbn [snd].
  destruct (astep_recv_stream tail ms [] true a Ht (fun _ => eq_refl) Hf) as (ms1 & Hf1 & E1 & Hp).
  rewrite E1 in *. f_equal. apply (IH ms1 _ Hf1). destruct (snd (astep ORecv a)).
  - destruct (a_done a); [|destruct (Hp eq_refl eq_refl eq_refl)]. cbn [app] in E1. rewrite <- E1.
    cbn. lia.
  - cbn [app length] in Hk. rewrite app_length in Hk. lia.
Qed.

Lemma arun_done ops : forall a,
  a_done a = true -> snd (arun ops a) = [] /\ a_done (fst (arun ops a)) = true.
Proof.
  induction ops as [|o ops IH]; intros a Hd; [auto|]. rewrite arun_cons. cbn [fst snd].
  assert (snd (astep o a) = [] /\ a_done (fst (astep o a)) = true) as [-> Hd1]
    by (destruct o; cbn [astep]; rewrite ?Hd; auto).
  apply IH, Hd1.
Qed.

Lemma arun_app o1 : forall o2 a,
  arun (o1 ++ o2) a =
  (fst (arun o2 (fst (arun o1 a))), snd (arun o1 a) ++ snd (arun o2 (fst (arun o1 a)))).
Proof.
  induction o1 as [|o o1 IH]; intros o2 a; [cbn; destruct (arun o2 a); reflexivity|].
  cbn [app]. rewrite !arun_cons, IH. cbn [fst snd]. rewrite app_assoc. reflexivity.
Qed.

Lemma wf_ops_app_recv ops k : forall c, wf_ops c ops -> wf_ops c (ops ++ repeat ORecv k).
Proof.
  induction ops as [|o ops IH]; intros c Hw; cbn [app].
  - induction k; cbn; auto.
  - destruct o; cbn [wf_ops] in *; intuition.
Qed.

Lemma follows_init tail ms :
  sizes_ok ms -> follows tail ms (concat (map frame ms) ++ tail) false (absr rstate_init).
Proof. intros Hms. split; [reflexivity|]. intros _. split; [assumption|reflexivity]. Qed.

(* (T3)/(T4) safety on the real Buffer, for every legal history delivering a prefix of the stream *)
Section Delivered.
  Context (ms : list bytes) (tail : bytes) (ops : list op) (rest : bytes) (st' : rstate)
          (rs : list result)
          (Hms : sizes_ok ms) (Ht : trunc_tail tail) (Hw : wf_ops false ops)
          (Hs : concat (payloads ops) ++ rest = concat (map frame ms) ++ tail)
          (He : ended ops = true -> rest = [])
          (H : run ops rstate_init = (st', rs)).

  (* what has been returned so far begins the messages in order, then the terminal outcome *)
  Lemma run_stream : exists more, map RMsg ms ++ [terminal tail] = rs ++ more.
  Proof.
    destruct (run_sim ops _ rinv_init Hw) as [_ Ha]. rewrite H in Ha. cbn [fst snd] in Ha.
    pose proof (follows_init tail ms Hms) as Hf. rewrite <- Hs in Hf.
    destruct (arun_stream tail ops Ht false rest ms _ Hw He Hf) as (ms' & _ & E).
    rewrite Ha in E. eauto.
  Qed.

  Lemma run_prefix : exists k, rs = firstn k (map RMsg ms ++ [terminal tail]).
  Proof.
    destruct run_stream as [more ->]. exists (length rs).
    rewrite firstn_app, Nat.sub_diag, firstn_all. symmetry. apply app_nil_r.
  Qed.

  Lemma run_no_fabrication m : In (RMsg m) rs -> In m ms.
  Proof.
    intros Hin. destruct run_stream as [more E].
    assert (Hin2 : In (RMsg m) (map RMsg ms ++ [terminal tail]))
      by (rewrite E; apply in_or_app; auto).
    apply in_app_or in Hin2. destruct Hin2 as [Hin2|[Hin2|[]]].
    - apply in_map_iff in Hin2. destruct Hin2 as (x & [= ->] & Hi). assumption.
    - destruct tail; discriminate.
  Qed.
End Delivered.

(* completeness: everything delivered, END_STREAM delivered, enough calls *)
Lemma run_complete ms tail ops k st' rs :
  sizes_ok ms -> trunc_tail tail -> wf_ops false ops ->
  concat (payloads ops) = concat (map frame ms) ++ tail ->
  ended ops = true -> (length ms < k)%nat ->
  run (ops ++ repeat ORecv k) rstate_init = (st', rs) ->
  rs = map RMsg ms ++ [terminal tail].
Proof.
  intros Hms Ht Hw Hs He Hk H.
  destruct (run_sim _ _ rinv_init (wf_ops_app_recv _ k _ Hw)) as [_ Ha].
  rewrite H, arun_app in Ha. cbn [fst snd] in Ha.
  pose proof (follows_init tail ms Hms) as Hf.
  rewrite <- Hs, <- (app_nil_r (concat (payloads ops))) in Hf.
  destruct (arun_stream tail ops Ht false [] ms _ Hw (fun _ => eq_refl) Hf) as (ms' & Hf' & E).
  cbn [absr rstate_init a_done r_done expect] in E. injection Ha as _ <-. rewrite He in Hf'.
  rewrite (arun_drain tail k Ht ms' _ Hf'); [symmetry; exact E|].
  apply (f_equal (@length _)) in E. rewrite !app_length, map_length in E. cbn [length] in E. lia.
Qed.

(* every cut of a stream of frames is: complete frames, then nothing or a proper prefix of a frame *)
Lemma cut_anywhere ms : forall pre suf,
  sizes_ok ms -> pre ++ suf = concat (map frame ms) ->
  exists ms1 ms2 tail, ms = ms1 ++ ms2 /\ pre = concat (map frame ms1) ++ tail /\
                       trunc_tail tail /\ (suf = [] -> ms2 = [] /\ tail = []).
Proof.
  induction ms as [|m ms IH]; intros pre suf Hms E.
  { apply app_eq_nil in E as [-> ->]. exists [], [], []. repeat split. left. reflexivity. }
  inversion Hms as [|? ? Hm Hms']; subst. cbn [map concat] in E.
  destruct (Z_le_gt_dec (zlen (frame m)) (zlen pre)) as [Hle|Hgt].
  - destruct (app_eq_prefix pre suf (frame m) _ E Hle) as [Hf Hs].
    destruct (IH _ _ Hms' Hs) as (ms1 & ms2 & tail & -> & Hp & Ht & Hsuf).
    exists (m :: ms1), ms2, tail. split; [reflexivity|]. split; [|split; assumption].
    cbn [map concat]. rewrite <- app_assoc, <- Hp, <- Hf at 1. symmetry. apply firstn_skipn.
  - (* the cut falls inside the first frame *)
    symmetry in E. destruct (app_eq_prefix _ _ pre suf E ltac:(lia)) as [Hf Hs].
    exists [], (m :: ms), pre. split; [reflexivity|]. split; [reflexivity|]. split.
    + destruct pre as [|b pre]; [left; reflexivity|right].
      exists m, (skipn (Z.to_nat (zlen (b :: pre))) (frame m)). repeat split; try assumption.
      * discriminate.
      * intros Hn. apply (f_equal (@zlen Z)) in Hn. rewrite zlen_skipn, zlen_nil in Hn by zlia.
        lia.
      * rewrite <- Hf at 1. apply firstn_skipn.
    + intros ->. exfalso. rewrite app_nil_r in E. rewrite <- E, zlen_app in Hgt. zlia.
Qed.

(* (T4) general form: END_STREAM after ANY prefix of the stream *)
Lemma run_any_truncation ms pre suf ops k st' rs :
  sizes_ok ms ->
  pre ++ suf = concat (map frame ms) ->
  wf_ops false ops -> concat (payloads ops) = pre -> ended ops = true ->
  (length ms < k)%nat ->
  run (ops ++ repeat ORecv k) rstate_init = (st', rs) ->
  exists ms1 ms2 t, ms = ms1 ++ ms2 /\ rs = map RMsg ms1 ++ [t] /\
    ((t = REos /\ pre = concat (map frame ms1)) \/
     (t = RFail EAssert /\ pre <> concat (map frame ms1))) /\
    (suf = [] -> t = REos /\ ms2 = []).
Proof.
  intros Hms E Hw Hp He Hk H.
  destruct (cut_anywhere ms pre suf Hms E) as (ms1 & ms2 & tail & -> & Hpre & Ht & Hsuf).
  apply Forall_app in Hms. destruct Hms as [Hms1 _].
  rewrite app_length in Hk. rewrite Hpre in Hp.
  rewrite (run_complete ms1 tail ops k st' rs Hms1 Ht Hw Hp He ltac:(lia) H).
  exists ms1, ms2, (terminal tail). split; [reflexivity|]. split; [reflexivity|]. split.
  - destruct tail as [|b tail]; [left|right]; cbn [terminal].
    + rewrite app_nil_r in Hpre. auto.
    + split; [reflexivity|]. rewrite Hpre. intros Hx.
      rewrite <- (app_nil_r (concat (map frame ms1))) in Hx at 2. apply app_inv_head in Hx.
      discriminate.
  - intros Hs. destruct (Hsuf Hs) as [-> ->]. auto.
Qed.

Lemma eos_sticky s :
  inv s -> eof_flag s = true -> abs_q s = [] ->
  exists s' cr, recv_step PIdle s = (s', PIdle, Some REos, cr) /\
                inv s' /\ eof_flag s' = true /\ abs_q s' = [].
Proof.
  intros Hi He Hq. pose proof (recv_step_ok PIdle s Hi I) as Hk. rewrite Hq, He in Hk.
  destruct (recv_step PIdle s) as [[[s' ph'] res] cr]. destruct Hk as (Hi' & _ & He' & Hspec).
  injection Hspec as Hq' <- <-. exists s', cr. auto.
Qed.

Definition chunk_ok (e : emitted) : Prop :=
  0 < e_window e /\
  (0 < e_maxframe e -> zlen (e_chunk e) <= e_window e /\ zlen (e_chunk e) <= e_maxframe e).

Definition unsent (r : option bytes) : bytes := match r with None => [] | Some rest => rest end.

Definition positive_obs (obs : list (Z * Z)) : nat :=
  length (filter (fun o => 0 <? fst o) obs).

(* the size of the chunk cut from n remaining bytes under window w and frame size mf
   (BytesIO.read(negative) returns everything) *)
Definition chunk_len (w mf n : Z) : Z :=
  let k := Z.min (Z.min w mf) n in if k <? 0 then n else k.

Lemma chunk_len_bounds w mf n :
  0 < w -> 0 <= n ->
  0 <= chunk_len w mf n <= n /\
  (0 < mf -> chunk_len w mf n <= w /\ chunk_len w mf n <= mf /\ (0 < n -> 0 < chunk_len w mf n)).
Proof. intros Hw Hn. unfold chunk_len. destruct (Z.min (Z.min w mf) n <? 0) eqn:E; lia. Qed.

(* one iteration that sees credit *)
Lemma send_loop_step w mf obs data :
  0 < w ->
  exists chunk rest, chunk ++ rest = data /\ zlen chunk = chunk_len w mf (zlen data) /\
    send_loop ((w, mf) :: obs) data =
    match rest with
    | [] => ([mk_emitted chunk w mf], None)
    | _ :: _ => let '(cs, r) := send_loop obs rest in (mk_emitted chunk w mf :: cs, r)
    end.
Proof.
  intros Hw. cbn [send_loop]. replace (0 <? w) with true by lia. unfold chunk_len.
  destruct (Z.min (Z.min w mf) (zlen data) <? 0) eqn:Ek.
  - exists data, []. rewrite app_nil_r. auto.
  - exists (firstn (Z.to_nat (Z.min (Z.min w mf) (zlen data))) data),
           (skipn (Z.to_nat (Z.min (Z.min w mf) (zlen data))) data).
    rewrite firstn_skipn, zlen_firstn by lia. auto.
Qed.

Lemma send_sizes_step w mf obs n :
  0 < w ->
  send_sizes ((w, mf) :: obs) n =
  if n - chunk_len w mf n =? 0 then ([chunk_len w mf n], None)
  else let '(cs, r) := send_sizes obs (n - chunk_len w mf n) in (chunk_len w mf n :: cs, r).
Proof. intros Hw. cbn [send_sizes]. replace (0 <? w) with true by lia. reflexivity. Qed.

Lemma send_loop_spec obs : forall data cs r,
  send_loop obs data = (cs, r) ->
  concat (map e_chunk cs) ++ unsent r = data /\
  Forall chunk_ok cs /\
  (data <> [] -> Forall (fun e => 0 < e_maxframe e -> e_chunk e <> []) cs).
Proof.
  induction obs as [|[w mf] obs IH]; intros data cs r H.
  { injection H as <- <-. cbn. auto. }
  destruct (0 <? w) eqn:Ew; [|cbn [send_loop] in H; rewrite Ew in H; apply IH, H].
  destruct (send_loop_step w mf obs data ltac:(lia)) as (chunk & rest & <- & Hz & E).
  rewrite E in H. clear E.
  pose proof (chunk_len_bounds w mf (zlen (chunk ++ rest)) ltac:(lia) ltac:(zlia)) as Hb.
  rewrite <- Hz, zlen_app in Hb.
  assert (Hck : chunk_ok (mk_emitted chunk w mf)) by (split; cbn [e_window e_maxframe e_chunk]; lia).
  assert (Hne : chunk ++ rest <> [] -> 0 < mf -> chunk <> []).
  { intros Hd Hmf ->. apply zlen_pos_of_nonnil in Hd. cbn in Hb, Hd. lia. }
  destruct rest as [|b rest].
  - injection H as <- <-. cbn [map concat e_chunk unsent]. rewrite !app_nil_r.
    repeat split; [constructor..]; auto.
  - destruct (send_loop obs (b :: rest)) as [cs' r'] eqn:El. injection H as <- <-.
    destruct (IH _ _ _ El) as (H1 & H2 & H3). cbn [map concat e_chunk]. rewrite <- app_assoc, H1.
    repeat split; [constructor..]; auto. apply H3. discriminate.
Qed.

(* termination: every iteration that sees credit sends at least one byte *)
Lemma send_loop_terminates obs : forall data,
  Forall (fun o => 0 < snd o) obs ->
  (Nat.max 1 (length data) <= positive_obs obs)%nat ->
  snd (send_loop obs data) = None.
Proof.
  induction obs as [|[w mf] obs IH]; intros data Hmf Hc; unfold positive_obs in *;
    cbn [filter fst length] in Hc; [lia|].
  inversion Hmf as [|? ? Hmf1 Hmf']; subst. cbn [snd] in Hmf1.
  destruct (0 <? w) eqn:Ew; [|cbn [send_loop]; rewrite Ew; apply IH; assumption].
  destruct (send_loop_step w mf obs data ltac:(lia)) as (chunk & rest & <- & Hz & ->).
  destruct rest as [|b rest]; [reflexivity|].
  pose proof (chunk_len_bounds w mf (zlen (chunk ++ b :: rest)) ltac:(lia) ltac:(zlia)) as Hb.
  rewrite <- Hz, zlen_app, zlen_cons in Hb.
  specialize (IH (b :: rest) Hmf'). destruct (send_loop obs (b :: rest)) as [cs' r']. apply IH.
  rewrite app_length in Hc. cbn [length] in *. zlia.
Qed.

Lemma send_sizes_spec obs : forall data,
  map (fun e => zlen (e_chunk e)) (fst (send_loop obs data)) = fst (send_sizes obs (zlen data)) /\
  option_map (@zlen Z) (snd (send_loop obs data)) = snd (send_sizes obs (zlen data)).
Proof.
  induction obs as [|[w mf] obs IH]; intros data; [cbn; auto|].
  destruct (0 <? w) eqn:Ew; [|cbn [send_loop send_sizes]; rewrite Ew; apply IH].
  destruct (send_loop_step w mf obs data ltac:(lia)) as (chunk & rest & <- & Hz & ->).
  rewrite send_sizes_step, <- Hz, zlen_app by lia.
  replace (zlen chunk + zlen rest - zlen chunk) with (zlen rest) by lia.
  destruct rest as [|b rest]; [cbn; auto|].
  replace (zlen (b :: rest) =? 0) with false by (rewrite zlen_cons; zlia).
  specialize (IH (b :: rest)). destruct (send_loop obs (b :: rest)) as [cs' r'].
  destruct (send_sizes obs (zlen (b :: rest))) as [cs2 r2].
  cbn [fst snd map e_chunk] in *. destruct IH as [-> ->]. auto.
Qed.

Inductive all_sent : list (list (Z * Z)) -> list bytes -> Prop :=
| AS_nil : all_sent [] []
| AS_cons obs obss m ms :
    snd (send_loop obs (frame m)) = None -> all_sent obss ms -> all_sent (obs :: obss) (m :: ms).

Lemma send_all_concat obss ms :
  all_sent obss ms -> concat (send_all obss ms) = concat (map frame ms).
Proof.
  induction 1 as [|obs obss m ms Hs Ha IH]; [reflexivity|].
  cbn [send_all map concat]. rewrite concat_app, IH. f_equal.
  destruct (send_loop obs (frame m)) as [cs r] eqn:E. cbn [snd fst] in *. subst r.
  destruct (send_loop_spec _ _ _ _ E) as (H1 & _). cbn [unsent] in H1.
  rewrite app_nil_r in H1. exact H1.
Qed.

(* A boundary of the property: recv_message called again AFTER it raised on a truncated stream.
   Full-strength statement (FALSE for the code as it is):
     for every legal history whose stream is complete frames ms followed by a truncated frame,
     every message returned by ANY sequence of recv_message calls -- including calls made after an
     earlier call raised -- is one of ms.
   The error is not sticky: Buffer.read leaves the bytes of the truncated body in the deque, and the
   next recv_message parses them as a fresh 5-byte prefix.  What holds (C01_truncation_prefix /
   C01_truncation_error / C01_no_fabrication) is the statement for a consumer that stops at the
   first exception. *)
Definition fab_msg : bytes := [0; 0; 0; 0; 2; 7; 7; 8; 8; 8].
Definition fab_ops : list op := [OAdd (firstn 12 (frame fab_msg)) 12; OEof; ORecv; ORecv].

Lemma read_after_error_refuted :
  exists ms p ops m,
    sizes_ok ms /\ inside_a_frame p /\ wf_ops false ops /\
    concat (payloads ops) = concat (map frame ms) ++ p /\ ended ops = true /\
    snd (run_raw ops rstate_init) = [RFail EAssert; RMsg m] /\ ~ In m ms.
Proof.
  exists [], (firstn 12 (frame fab_msg)), fab_ops, [7; 7].
  split; [constructor|]. split.
  { exists fab_msg, [8; 8; 8]. split; [reflexivity|]. split; [discriminate|].
    split; [discriminate|]. reflexivity. }
  split. { cbn. split; [reflexivity|]. split; [discriminate|]. split; [reflexivity|exact I]. }
  split; [reflexivity|]. split; [reflexivity|]. split; [vm_compute; reflexivity|intros []].
Qed.
