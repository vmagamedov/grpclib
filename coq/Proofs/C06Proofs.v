(* C06 -- consequences of the closure theorem (Proofs/C06Closure.v) that need no recomputation *)
From Coq Require Import List Bool PArith NArith.
From GV Require Import Lib.Reach Model.StreamIR Model.StreamSem Gen.StreamOps Proofs.C06Closure.
Import ListNotations.

(* `g_viol` records a refusal that emitted a frame or changed a flag: a refused transition into a state
   without it did neither *)
Lemma refused_without_viol sd tbl cs ss g c g' fr :
  In (g', RRefused, fr) (gstep sd tbl cs ss g c) -> g_viol g' = false -> fr = [] /\ g_fl g' = g_fl g.
Proof.
  destruct c as [o a_end a_ok|]; cbn [gstep]; [destruct (lookup o tbl) as [body|]|].
  - (* an operation of the table, ended with `ct`: only Raised XProtocolError is classified RRefused,
       and then g_viol g' has `bad_refusal` as a disjunct *)
    rewrite in_map_iff. intros [[s1 ct] [[= <- Hcl <-] _]]. cbn [fst snd g_viol g_fl] in *.
    destruct ct as [| |[|k]]; try discriminate Hcl. intro Hv.
    apply orb_false_elim in Hv. destruct Hv as [Hv _]. apply orb_false_elim in Hv. destruct Hv as [_ Hb].
    apply negb_false_iff, andb_prop in Hb. destruct Hb as [Hf Hfl].
    split; [destruct (rev (out s1)); [reflexivity | discriminate] | exact (flags_eqb_eq _ _ Hfl)].
  - (* no such operation on this side: g' = g *)
    intros [[= <- <-]|[]] _. split; reflexivity.
  - (* PeerEnds is never refused *)
    intros [[=]|[]].
Qed.

Theorem refusal_is_silent :
  forall sd cs ss remote g c g' r fr,
    reachable sd cs ss remote g ->
    In (g', r, fr) (gstep sd (tbl_of sd) cs ss g c) ->
    r = RRefused -> fr = [] /\ g_fl g' = g_fl g.
Proof.
  intros sd cs ss remote g c g' r fr Hr Hin ->. apply (refused_without_viol _ _ _ _ _ _ _ _ Hin).
  assert (Hr' : reachable sd cs ss remote g').
  { eapply reach_step; [exact Hr | apply all_calls_complete | exact (in_map (fun x => fst (fst x)) _ _ Hin)]. }
  apply negb_true_iff. exact (proj1 (andb_prop _ _ (any_call_order_is_wellformed _ _ _ _ _ Hr'))).
Qed.

(* the size of the explored table: the number of reachable states, unless the exploration ran out of fuel *)
Definition reachable_count (sd : side) (cs ss remote : bool) : nat :=
  length (states gstate (fst (explore sd cs ss remote))).
