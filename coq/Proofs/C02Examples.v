(* Non-vacuity examples for C02: the hypotheses of the theorems are satisfiable by non-trivial inputs,
   the string level classifies what Python classifies, and the bounded domain contains the cells the
   rows talk about.  Everything here is decided by vm_compute; for the size of the domain the timings of
   a layout are counted (length_timings), not listed. *)
From Coq Require Import String ZArith List Bool Lia.
From GV Require Import Lib.Str Gen.Facts Gen.FactsC02 Model.Base64 Model.Metadata Model.PyInt
  Model.ClientCall Proofs.C02Proofs.
Import ListNotations.
Open Scope Z_scope.

(* int(): blanks, sign, underscores, Unicode digits -- and what it refuses *)
Example ex_int_plain : py_int (s2z " 1_0 ") = Some 10. Proof. vm_compute; reflexivity. Qed.
Example ex_int_sign : py_int (s2z "+3") = Some 3 /\ py_int (s2z "-0") = Some 0.
Proof. vm_compute; split; reflexivity. Qed.
Example ex_int_arabic : py_int [1635] = Some 3 /\ py_int [65297; 65298] = Some 12.
Proof. vm_compute; split; reflexivity. Qed.
Example ex_int_nbsp : py_int [160; 53; 12288] = Some 5. Proof. vm_compute; reflexivity. Qed.
Example ex_int_refused :
  py_int (s2z "") = None /\ py_int (s2z "1__0") = None /\ py_int (s2z "_1") = None /\
  py_int (s2z "1_") = None /\ py_int (s2z "+ 1") = None /\ py_int (s2z "1.0") = None /\
  py_int [28; 49] = None /\ py_int [49; 0] = None /\ py_int [178] = None.
Proof. vm_compute; repeat split; reflexivity. Qed.

(* a header block with a decoy: the last :status wins; " 1_0 " is ABORTED *)
Definition ex_headers : hdrs :=
  [ (s2z ":status", s2z "404"); (s2z ":status", s2z "200");
    (s2z "content-type", s2z "application/grpc+proto");
    (s2z "grpc-status", s2z " 1_0 "); (s2z "grpc-message", s2z "a%20b"); (s2z "x-bin", s2z "QUJD") ].
Example ex_alpha : alpha_h proto_content_subtype ex_headers =
                   {| hi_st := S200; hi_ct := CtOk; hi_gs := GsErr; hi_md := MdOk |}.
Proof. vm_compute; reflexivity. Qed.

(* trailers-only ABORTED on a unary call, resolved against the strings *)
Example ex_observe :
  observe proto_content_subtype true no_listeners (Call false false)
          [{| cb_trig := TB; cb_events := [CH ex_headers false true] |}]
  = OGrpc 10 (MHeader (s2z "a%20b")) DAbsent.
Proof. vm_compute; reflexivity. Qed.

(* a malformed user -bin header: binascii.Error (D2c) *)
Example ex_observe_bad_bin :
  observe proto_content_subtype true no_listeners (Call false false)
          [{| cb_trig := TB;
              cb_events := [CH [(s2z ":status", s2z "200"); (s2z "content-type", s2z "application/grpc");
                                (s2z "x-bin", s2z "A")] false false;
                            CD false; CT [(s2z "grpc-status", s2z "0")] false] |}]
  = OBinascii.
Proof. vm_compute; reflexivity. Qed.

(* the domain is not trivial: it contains, outside the defect classes, cells of every row *)
Definition result_is (r : result) (k : kind) (bs : list batch) : bool :=
  negb (defect k bs) &&
  match outcome no_listeners k bs, r with
  | ROk _, ROk _ => true
  | RExc e, RExc e' => exn_eqb e e'
  | RHang, RHang => true
  | _, _ => false
  end.

Definition cfg0 (k : kind) : config := (no_listeners, k, 2%nat).
Definition cfgL (k : kind) : config := (all_listeners, k, 1%nat).

Example ex_domain_server_status :
  exists bs, In bs (cases_of (cfg0 (Call false false))) /\
             result_is (RExc (XServer BTrl)) (Call false false) bs = true.
Proof. apply exists_scripts_sound. vm_compute. reflexivity. Qed.

Example ex_domain_success_stream :
  exists bs, In bs (cases_of (cfg0 (Call true true))) /\ result_is (ROk 0) (Call true true) bs = true.
Proof. apply exists_scripts_sound. vm_compute. reflexivity. Qed.

Example ex_domain_terminated_open :
  exists bs, In bs (cases_of (cfg0 (Open false false [RI; RM; RT]))) /\
             result_is (RExc XTerminated) (Open false false [RI; RM; RT]) bs = true.
Proof. apply exists_scripts_sound. vm_compute. reflexivity. Qed.

Example ex_domain_hang_allowed :
  exists bs, In bs (cases_of (cfg0 (Call false true))) /\ result_is RHang (Call false true) bs = true.
Proof. apply exists_scripts_sound. vm_compute. reflexivity. Qed.

(* the listener configurations contain scripts whose last batch is delivered during a suspension and
   ends the call with the upgraded server status *)
Example ex_domain_listener_cut :
  exists bs, In bs (cases_of (cfgL (Call false false))) /\
             (existsb (fun b => match b_trig b with TL => existsb (fun e => match e with AGoaway | ALost => true | _ => false end) (b_events b) | _ => false end) bs
              && match outcome all_listeners (Call false false) bs with
                 | RExc (XServer BTrl) => true | _ => false end) = true.
Proof. apply exists_scripts_sound. vm_compute. reflexivity. Qed.

Example ex_configs : In (cfg0 (Call false false)) configs /\ In (cfgL (Open false false [RI; RM; RT])) configs /\
                     List.length configs = 24%nat.
Proof. vm_compute. repeat split; auto 30. Qed.

(* hypotheses of the row theorems are satisfiable inside the domain *)
Example ex_row_hyps :
  exists_scripts 2 [TB] (row_non200_hyp (Call false false)) = true /\
  exists_scripts 2 [TB] (row_server_trl_hyp (Call false false)) = true /\
  exists_scripts 2 [TB] (row_server_hdr_hyp (Call false false)) = true /\
  exists_scripts 2 [TB] (row_nothing_hyp (Call false false)) = true /\
  exists_scripts 2 [TB] (row_success_hyp (Call false false)) = true /\
  exists_scripts 2 [TB] (row_missing_status_hyp (Call false true)) = true.
Proof. vm_compute. repeat split; reflexivity. Qed.

(* the hypothesis of the general liveness theorem on a script outside the bounded domain: five
   messages, a trigger pattern that is not enumerated, then trailers *)
Definition ex_long : list batch :=
  [{| b_trig := TS 1; b_events := [AH (H_ok GsAbsent MdOk) false; AD false] |};
   {| b_trig := TS 0; b_events := [AD false; AD false] |};
   {| b_trig := TB; b_events := [AD false; AD false; AT (T_of GsErr)] |}].
Example ex_long_hyp : wf_script ex_long = true /\ ev_ended (events ex_long) = true.
Proof. vm_compute; split; reflexivity. Qed.
Example ex_long_outcome : outcome all_listeners (Open true true [RI; RM; IT]) ex_long = RExc (XServer BTrl).
Proof. vm_compute; reflexivity. Qed.

(* size of the enumeration (cells per kind) *)
Definition count_scripts maxd trs : Z :=
  fold_left (fun a es => fold_left (fun a c => a + Z.of_nat (List.length (timings trs es c))) all_cuts a)
            (all_layouts maxd) 0.

Lemma length_flat_map {A B} (f : A -> list B) n l :
  (forall x, List.length (f x) = n) -> List.length (flat_map f l) = (List.length l * n)%nat.
Proof. intros H. induction l as [|x r IH]; cbn; [reflexivity|]. rewrite app_length, H, IH. reflexivity. Qed.

(* every split point, both batchings, every trigger *)
Lemma length_timings trs es c : List.length (timings trs es c) = (S (List.length es) * (List.length trs * 2))%nat.
Proof.
  unfold timings. rewrite (length_flat_map _ (List.length trs * 2)), seq_length; [reflexivity|].
  intros j. apply length_flat_map. reflexivity.
Qed.

Lemma count_scripts_eq maxd trs :
  count_scripts maxd trs =
  8 * Z.of_nat (List.length trs) * fold_left (fun a es => a + Z.of_nat (S (List.length es))) (all_layouts maxd) 0.
Proof.
  unfold count_scripts. generalize (all_layouts maxd) as l.
  assert (H : forall l a b, a = 8 * Z.of_nat (List.length trs) * b ->
    fold_left (fun a es => fold_left (fun a c => a + Z.of_nat (List.length (timings trs es c))) all_cuts a) l a
    = 8 * Z.of_nat (List.length trs) * fold_left (fun a es => a + Z.of_nat (S (List.length es))) l b).
  { induction l as [|es r IH]; intros a b E; cbn [fold_left all_cuts]; [exact E|].
    apply IH. rewrite !length_timings. lia. }
  intros l. apply H. lia.
Qed.

Example ex_domain_size :
  count_scripts 2 [TB] = 43784 /\ count_scripts 2 (step_triggers 3) = 218920 /\
  count_scripts 1 [TB; TL] = 50704.
Proof. rewrite !count_scripts_eq. vm_compute. repeat split; reflexivity. Qed.
