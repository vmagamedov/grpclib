(* Non-vacuity examples for C01: concrete non-trivial inputs satisfy the hypotheses of the theorems
   of Props/C01.v and produce what the theorems say.  Everything is decided by computation. *)
From Coq Require Import ZArith List Bool.
From GV Require Import Model.Framing Model.RecvBuffer Model.SendChunk Proofs.C01Proofs.
Import ListNotations.
Open Scope Z_scope.

Definition hello : bytes := [104; 101; 108; 108; 111].
Definition seven : bytes := [1; 2; 3; 4; 5; 6; 7].

(* what struct.pack gives in Python: b'\x00\x00\x00\x00\x05hello' *)
Example ex_frame : frame hello = [0; 0; 0; 0; 5; 104; 101; 108; 108; 111].
Proof. vm_compute; reflexivity. Qed.

Example ex_frame_big_endian : be32 16909060 = [1; 2; 3; 4].
Proof. vm_compute; reflexivity. Qed.

Example ex_parse : parse_frames (concat (map frame [hello; []; seven])) = Some [hello; []; seven].
Proof. vm_compute; reflexivity. Qed.

Example ex_parse_rejects_truncated : parse_frames (firstn 8 (frame hello)) = None.
Proof. vm_compute; reflexivity. Qed.

(* the input of defect D1 (Buffer.add now skips a frame with flow_controlled_length 0, which was
   taken for the EOF marker): a message cut as DATA(3 bytes), empty DATA, DATA(rest), with the
   receiver scheduled between the frames *)
Definition d1_ops : list op :=
  [ORecv; OAdd [0; 0; 0] 3; ORecv; OAdd [] 0; ORecv; OAdd ([0; 5] ++ hello) 7; ORecv; OEof; ORecv].

Example d1_wf : wf_ops false d1_ops.
Proof. cbn. repeat split; discriminate. Qed.

Example d1_stream : concat (payloads d1_ops) = concat (map frame [hello]).
Proof. vm_compute; reflexivity. Qed.

Example d1_ended : ended d1_ops = true.
Proof. reflexivity. Qed.

Example d1_result : snd (run d1_ops rstate_init) = [RMsg hello; REos].
Proof. vm_compute; reflexivity. Qed.

(* three messages (one empty), cut into one-byte, empty un-padded, empty padded and padded
   DATA frames, reads interleaved everywhere *)
Definition ex_ms : list bytes := [hello; []; seven].

Definition ex_ops : list op :=
  [ OAdd [0] 1; ORecv; OAdd [0; 0] 2; OAdd [] 0; ORecv; OAdd [] 4;            (* padded empty frame *)
    OAdd [0; 5; 104; 101] 260; ORecv;                                           (* 256 bytes of padding *)
    OAdd [108; 108; 111; 0; 0; 0] 6; ORecv; ORecv;
    OAdd [0; 0; 0] 3; ORecv;                                                    (* the empty message *)
    OAdd [0; 0; 0; 7; 1; 2; 3] 7; ORecv; OAdd [] 0; OAdd [4; 5; 6; 7] 5; OEof; ORecv ].

Example ex_sizes : sizes_ok ex_ms.
Proof. repeat constructor. Qed.

Example ex_wf : wf_ops false ex_ops.
Proof. cbn. repeat split; discriminate. Qed.

Example ex_stream : concat (payloads ex_ops) = concat (map frame ex_ms).
Proof. vm_compute; reflexivity. Qed.

Example ex_ended : ended ex_ops = true.
Proof. reflexivity. Qed.

(* the history itself, which schedules the receiver once after END_STREAM, returns the three
   messages ... *)
Example ex_partial : snd (run ex_ops rstate_init) = [RMsg hello; RMsg []; RMsg seven].
Proof. vm_compute; reflexivity. Qed.

(* ... and with enough further calls, everything followed by end of stream *)
Example ex_result :
  snd (run (ex_ops ++ repeat ORecv 4) rstate_init) = [RMsg hello; RMsg []; RMsg seven; REos].
Proof. vm_compute; reflexivity. Qed.

(* a read that blocks, then a padded frame, then the resumed read: each queued frame is
   acknowledged once, with its flow-controlled length (2, then 9 for 4 bytes of data) *)
Example ex_blocked_read_then_add :
  let '(s1, o1, c1) := read_start 5 (add [0; 0] 2 buf_init) in
  let '(s2, o2, c2) := read_resume 5 (add [0; 0; 9; 1] 9 s1) in
  (o1, c1, o2, c2, acked_size s2, acked s2) = (RBlocked, [2], RBytes [0; 0; 0; 0; 9], [9], 1, [[1]]).
Proof. vm_compute; reflexivity. Qed.

(* truncation: the stream ends inside the second message *)
Definition tr_tail : bytes := firstn 8 (frame seven).
Definition tr_ops : list op :=
  [OAdd (frame hello ++ firstn 2 tr_tail) 12; ORecv; OAdd (skipn 2 tr_tail) 6; ORecv; OEof].

Example tr_inside : inside_a_frame tr_tail.
Proof.
  exists seven, (skipn 8 (frame seven)).
  split; [reflexivity|]. split; [discriminate|]. split; [discriminate|]. reflexivity.
Qed.

Example tr_wf : wf_ops false tr_ops.
Proof. cbn. repeat split; discriminate. Qed.

Example tr_stream : concat (payloads tr_ops) = concat (map frame [hello]) ++ tr_tail.
Proof. vm_compute; reflexivity. Qed.

Example tr_result :
  snd (run (tr_ops ++ repeat ORecv 2) rstate_init) = [RMsg hello; RFail EAssert].
Proof. vm_compute; reflexivity. Qed.

(* the stream ends after the 5-byte prefix of a non-empty message: the second read returns b'' and
   the length assertion of recv_message fails *)
Example tr_after_prefix :
  snd (run [OAdd (firstn 5 (frame seven)) 5; OEof; ORecv] rstate_init) = [RFail EAssert].
Proof. vm_compute; reflexivity. Qed.

(* compressed flag set *)
Example ex_compressed :
  snd (run [OAdd [1; 0; 0; 0; 1; 9] 6; ORecv] rstate_init) = [RNotImpl].
Proof. vm_compute; reflexivity. Qed.

(* sender: a 12-byte frame under changing windows; a non-positive window waits *)
Definition ex_obs : list (Z * Z) := [(3, 16384); (0, 16384); (-5, 16384); (100, 4); (1, 16384); (65535, 16384)].

Example ex_send :
  send_loop ex_obs (frame seven) =
  ([ mk_emitted [0; 0; 0] 3 16384; mk_emitted [0; 7; 1; 2] 100 4;
     mk_emitted [3] 1 16384; mk_emitted [4; 5; 6; 7] 65535 16384 ], None).
Proof. vm_compute; reflexivity. Qed.

Example ex_send_sizes : send_sizes ex_obs 12 = ([3; 4; 1; 4], None).
Proof. vm_compute; reflexivity. Qed.

Example ex_send_starved : send_loop [(2, 16384); (0, 16384)] hello = ([mk_emitted [104; 101] 2 16384], Some [108; 108; 111]).
Proof. vm_compute; reflexivity. Qed.

Example ex_send_obs_ok : Forall (fun o => 0 < snd o) ex_obs /\ (Nat.max 1 (length hello) <= positive_obs (ex_obs ++ ex_obs))%nat.
Proof. split; [repeat constructor|vm_compute; repeat constructor]. Qed.

(* empty payload (never produced by send_message): one empty DATA frame *)
Example ex_send_empty : send_loop [(10, 16384)] [] = ([mk_emitted [] 10 16384], None).
Proof. vm_compute; reflexivity. Qed.

(* end to end: two messages, each chunked under its own observations, re-cut on the way *)
Definition e2e_obss : list (list (Z * Z)) := [ex_obs; [(4, 16384); (65535, 16384)]].
Definition e2e_ms : list bytes := [seven; hello].

Example e2e_all_sent : all_sent e2e_obss e2e_ms.
Proof. repeat constructor. Qed.

Definition e2e_ops : list op :=
  map (fun d => OAdd d (zlen d + 1)) (send_all e2e_obss e2e_ms) ++ [ORecv; OEof].

Example e2e_wf : wf_ops false e2e_ops.
Proof. vm_compute. repeat split; discriminate. Qed.

Example e2e_payloads : concat (payloads e2e_ops) = concat (send_all e2e_obss e2e_ms).
Proof. vm_compute; reflexivity. Qed.

Example e2e_result :
  snd (run (e2e_ops ++ repeat ORecv 3) rstate_init) = [RMsg seven; RMsg hello; REos].
Proof. vm_compute; reflexivity. Qed.
