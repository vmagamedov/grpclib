(* Proofs for Props/C19.v, part 2: ServiceStatus.set / _reset_waits / Health.Watch.
   Invariant "an event that is clear -> the check still has the value this watcher read last; a wait
   task suspended on an event -> the event is clear", for every reachable state under ANY op list (all
   interleavings of set calls, new watchers, cancellations, blocked sends and the steps of the wait tasks
   and Watch tasks); termination measure for the internal steps; the FIFO scheduler is one of the
   schedules. *)
From Coq Require Import ZArith List Bool Lia ZifyBool Arith.
From GV Require Import Gen.FactsC19 Model.Health Proofs.C19Proofs.
Import ListNotations.
Open Scope Z_scope.

Lemma upd_nth_length {A} k (f : A -> A) l : length (upd_nth k f l) = length l.
Proof. revert k. induction l as [|x r IH]; intros [|k]; simpl; auto. Qed.

Lemma nth_error_upd_nth {A} k (f : A -> A) l j :
  nth_error (upd_nth k f l) j =
  if Nat.eqb j k then option_map f (nth_error l j) else nth_error l j.
Proof.
  revert k j. induction l as [|x r IH]; intros k j.
  - destruct k, j; simpl; try reflexivity; destruct (Nat.eqb j k); reflexivity.
  - destruct k, j; simpl; try reflexivity. apply IH.
Qed.

Lemma Forall_upd_nth {A} (P : A -> Prop) k f l :
  Forall P l -> (forall x, P x -> P (f x)) -> Forall P (upd_nth k f l).
Proof.
  intros H Hf. revert k. induction H as [|x r Hx Hr IH]; intros [|k]; simpl; constructor; auto.
Qed.

Lemma upd_nth_id {A} k (f : A -> A) l :
  (forall x, nth_error l k = Some x -> f x = x) -> upd_nth k f l = l.
Proof.
  revert k. induction l as [|x r IH]; intros [|k] H; simpl; try reflexivity.
  - rewrite (H x eq_refl). reflexivity.
  - rewrite IH; [reflexivity|]. intros y Hy. apply H. exact Hy.
Qed.

Lemma In_upd_nth {A} k (f : A -> A) l y :
  In y (upd_nth k f l) -> In y l \/ exists x, nth_error l k = Some x /\ y = f x.
Proof.
  revert k. induction l as [|x r IH]; intros [|k] H; simpl in *; try tauto.
  - destruct H as [H|H]; [right; exists x; auto | left; auto].
  - destruct H as [H|H]; [left; auto|]. destruct (IH k H) as [H'|H']; [left; auto | right; auto].
Qed.

Lemma map_upd_nth {A B} (g : A -> B) k f l : (forall x, g (f x) = g x) -> map g (upd_nth k f l) = map g l.
Proof.
  intro H. revert k. induction l as [|x r IH]; intros [|k]; simpl; try reflexivity; congruence.
Qed.

Lemma existsb_upd_nth {A} (g : A -> bool) k f l :
  (forall x, g x = true -> g (f x) = true) -> existsb g l = true -> existsb g (upd_nth k f l) = true.
Proof.
  intro H. revert k. induction l as [|x r IH]; intros [|k] E; simpl in *; try discriminate;
    apply orb_true_iff in E; apply orb_true_iff; destruct E; auto.
Qed.

Lemma existsb_map {A} (g : A -> bool) f l :
  (forall x, g x = true -> g (f x) = true) -> existsb g l = true -> existsb g (map f l) = true.
Proof.
  intros H E. apply existsb_exists in E. destruct E as (x & Hin & E). apply existsb_exists.
  exists (f x). split; [apply in_map, Hin | apply H, E].
Qed.

Lemma forallb_false_nth {A} (g : A -> bool) l :
  forallb g l = false -> exists k x, nth_error l k = Some x /\ g x = false.
Proof.
  induction l as [|x r IH]; [discriminate|]. cbn [forallb]. destruct (g x) eqn:E.
  - intro H. destruct (IH H) as (k & y & N & Q). exists (S k), y. split; assumption.
  - intros _. exists O, x. split; [reflexivity | exact E].
Qed.

Lemma sum_upd_nth {A} (mu : A -> nat) k f l x :
  nth_error l k = Some x -> (mu (f x) < mu x)%nat ->
  (fold_right (fun y n => (mu y + n)%nat) O (upd_nth k f l) < fold_right (fun y n => (mu y + n)%nat) O l)%nat.
Proof.
  revert k. induction l as [|y r IH]; intros [|k] H L; simpl in *; try discriminate.
  - injection H as ->. lia.
  - specialize (IH k H L). lia.
Qed.

Lemma val_of_set_nth vals i v j :
  (i < length vals)%nat ->
  val_of (set_nth i v vals) j = if Nat.eqb j i then v else val_of vals j.
Proof.
  unfold val_of. revert i j. induction vals as [|x r IH]; intros i j Hi; simpl in Hi; [lia|].
  destruct i, j; simpl; try reflexivity. apply IH. lia.
Qed.

Lemma set_nth_length {A} k (x : A) l : length (set_nth k x l) = length l.
Proof. revert k. induction l as [|y r IH]; intros [|k]; simpl; auto. Qed.

Definition slot_ok (vals : list st) (sl : slot) : Prop :=
  (sl_ev sl = false -> sl_seen sl = val_of vals (sl_check sl)) /\
  (sl_wait sl = WBlocked -> sl_ev sl = false).

Definition watcher_ok (vals : list st) (w : watcher) : Prop :=
  active (w_pc w) = true ->
  Forall (slot_ok vals) (w_slots w) /\
  hd_error (w_sent w) = Some (agg_status (map sl_seen (w_slots w))) /\
  (w_pc w = PWaking -> any_done (w_slots w) = true).

Definition sys_ok (s : wsys) : Prop := Forall (watcher_ok (s_vals s)) (s_ws s).

Lemma sys_ok_nth s k w : sys_ok s -> nth_error (s_ws s) k = Some w -> watcher_ok (s_vals s) w.
Proof. intros H N. eapply Forall_forall; [exact H | eapply nth_error_In, N]. Qed.

Lemma ev_set_check sl : sl_check (ev_set sl) = sl_check sl.
Proof. unfold ev_set. destruct (sl_ev sl); reflexivity. Qed.

Lemma ev_set_seen sl : sl_seen (ev_set sl) = sl_seen sl.
Proof. unfold ev_set. destruct (sl_ev sl); reflexivity. Qed.

Lemma ev_set_done sl : wait_done (sl_wait (ev_set sl)) = wait_done (sl_wait sl).
Proof. unfold ev_set. destruct (sl_ev sl); [reflexivity|]. simpl. destruct (sl_wait sl); reflexivity. Qed.

(* whatever the checks' values have become *)
Lemma ev_set_ok vals vals' sl : slot_ok vals sl -> slot_ok vals' (ev_set sl).
Proof.
  intros [_ H]. unfold ev_set. destruct (sl_ev sl) eqn:E.
  - split; [congruence | intro W; discriminate (H W)].
  - split; cbn; [discriminate | destruct (sl_wait sl); discriminate].
Qed.

Lemma on_set_ok vals i v w :
  (i < length vals)%nat ->
  watcher_ok vals w ->
  watcher_ok (set_nth i v vals) (on_set i (negb (st_eqb (val_of vals i) v)) w).
Proof.
  intros Hi Hw. unfold on_set. change notifies with true. rewrite andb_true_r.
  destruct (active (w_pc w)) eqn:Ha; cbn [andb]; [|intro Ha'; congruence].
  destruct (Hw Ha) as (Hs & Hh & Hk). destruct (st_eqb (val_of vals i) v) eqn:Hc; intros _; cbn [negb andb].
  - (* the same value again: no check has changed *)
    apply st_eqb_eq in Hc. repeat split; try assumption. eapply Forall_impl; [|exact Hs].
    intros sl [H1 H2]. split; [|exact H2]. rewrite val_of_set_nth by exact Hi.
    destruct (Nat.eqb (sl_check sl) i) eqn:Ei; [|exact H1]. apply Nat.eqb_eq in Ei. subst. exact H1.
  - (* a new value: the events of check i are set, the other checks are as before *)
    cbn [w_pc w_slots w_sent]. split; [|split].
    + apply Forall_map. eapply Forall_impl; [|exact Hs]. intros sl H.
      destruct (Nat.eqb (sl_check sl) i) eqn:Ei; [exact (ev_set_ok vals _ sl H)|].
      destruct H as [H1 H2]. split; [|exact H2]. rewrite val_of_set_nth, Ei by exact Hi. exact H1.
    + rewrite map_map. rewrite Hh. do 2 f_equal. apply map_ext. intro sl.
      destruct (Nat.eqb (sl_check sl) i); [symmetry; apply ev_set_seen | reflexivity].
    + intro P. apply existsb_map; [|exact (Hk P)]. intros sl D.
      destruct (Nat.eqb (sl_check sl) i); [rewrite ev_set_done|]; exact D.
Qed.

Lemma wait_run_ok vals sl : slot_ok vals sl -> slot_ok vals (wait_run sl).
Proof.
  intros H. pose proof H as [H1 _]. unfold wait_run.
  destruct (sl_wait sl); try exact H; split; cbn; try exact H1; [|discriminate].
  destruct (sl_ev sl); [discriminate | reflexivity].
Qed.

Lemma wait_run_seen sl : sl_seen (wait_run sl) = sl_seen sl.
Proof. unfold wait_run. destruct (sl_wait sl); reflexivity. Qed.

Lemma wait_run_done sl : wait_done (sl_wait sl) = true -> wait_done (sl_wait (wait_run sl)) = true.
Proof. unfold wait_run. destruct (sl_wait sl) eqn:W; simpl; try discriminate; rewrite W; auto. Qed.

Lemma facts_reset : reset_when_absent_or_done = true /\ reset_clears_then_waits = true /\ watch_first_completed = true.
Proof. repeat split. Qed.

Lemma reset_slot_eq vals sl :
  reset_slot vals sl =
  if wait_done (sl_wait sl) then mkSlot (sl_check sl) false WNew (val_of vals (sl_check sl))
  else mkSlot (sl_check sl) (sl_ev sl) (sl_wait sl) (val_of vals (sl_check sl)).
Proof. reflexivity. Qed.

Lemma reset_slot_ok vals sl : slot_ok vals sl -> slot_ok vals (reset_slot vals sl).
Proof.
  intros [_ H]. rewrite reset_slot_eq. destruct (wait_done (sl_wait sl)); split; cbn; try reflexivity;
    (discriminate || exact H).
Qed.

Lemma reset_slot_seen vals sl : sl_seen (reset_slot vals sl) = val_of vals (sl_check (reset_slot vals sl)).
Proof. rewrite reset_slot_eq. destruct (wait_done (sl_wait sl)); reflexivity. Qed.

Lemma local_step_ok vals op w : watcher_ok vals w -> watcher_ok vals (local_step vals op w).
Proof.
  intro Hw. unfold local_step. destruct (active (w_pc w)) eqn:Ha; cbn [negb]; [|exact Hw].
  destruct (Hw Ha) as (Hs & Hh & Hk).
  destruct op as [p| | | |b|].
  - (* LWaitRun *) intros _. cbn [w_pc w_slots w_sent]. split; [|split].
    + apply Forall_upd_nth; [exact Hs | apply wait_run_ok].
    + rewrite (map_upd_nth sl_seen) by apply wait_run_seen. exact Hh.
    + intro P. apply existsb_upd_nth; [intro sl; apply wait_run_done | exact (Hk P)].
  - (* LCompl *) destruct (pc_eqb (w_pc w) PWaiting && wait_returns (w_slots w)) eqn:E; [|exact Hw].
    intros _. cbn [w_pc w_slots w_sent]. split; [exact Hs | split; [exact Hh|]].
    intros _. apply andb_true_iff in E. apply E.
  - (* LRunW *) change watch_segment_atomic with true. rewrite andb_true_r.
    destruct (pc_eqb (w_pc w) PWaking); [|exact Hw].
    intros _. cbn [w_pc w_slots w_sent hd_error]. split; [|split].
    + apply Forall_map. eapply Forall_impl; [|exact Hs]. intro sl. apply reset_slot_ok.
    + unfold cur_status. do 2 f_equal. rewrite !map_map. apply map_ext. intro sl. symmetry. apply reset_slot_seen.
    + destruct (w_slow w); discriminate.
  - (* LSendDone *) destruct (pc_eqb (w_pc w) PSending); [|exact Hw].
    intros _. cbn [w_pc w_slots w_sent]. split; [exact Hs | split; [exact Hh | discriminate]].
  - (* LSetSlow *) intros _. cbn [w_pc w_slots w_sent]. split; [exact Hs | split; [exact Hh | exact Hk]].
  - (* LCancel *) cbn [w_pc active]. discriminate.
Qed.

Lemma new_watcher_ok reg vals name slow : watcher_ok vals (new_watcher reg vals name slow).
Proof.
  unfold new_watcher. destruct (lookup reg name) as [[|c cs]|]; try (cbn [w_pc active]; discriminate).
  intros _. cbn [w_pc w_slots w_sent hd_error]. split; [|split].
  - apply Forall_map, Forall_forall. intros i _. split; cbn; [reflexivity | discriminate].
  - unfold cur_status. rewrite !map_map. reflexivity.
  - destruct slow; discriminate.
Qed.

Lemma wstep_ok s op : sys_ok s -> sys_ok (wstep s op).
Proof.
  intro H. unfold sys_ok in *. destruct op as [i v|name slow|k op]; cbn [wstep].
  - destruct (Nat.ltb i (length (s_vals s))) eqn:Hi; [|exact H].
    apply Nat.ltb_lt in Hi. cbn [s_vals s_ws]. apply Forall_map. eapply Forall_impl; [|exact H].
    intro w. apply on_set_ok, Hi.
  - cbn [s_vals s_ws]. apply Forall_app. split; [exact H|]. constructor; [|constructor].
    apply new_watcher_ok.
  - cbn [s_vals s_ws]. apply Forall_upd_nth; [exact H|]. intros w Hw. apply local_step_ok, Hw.
Qed.

Lemma wrun_ok s ops : sys_ok s -> sys_ok (wrun s ops).
Proof.
  revert s. induction ops as [|op r IH]; intros s H; [exact H|]. apply IH, wstep_ok, H.
Qed.

Lemma winit_ok reg vals : sys_ok (winit reg vals).
Proof. constructor. Qed.

Theorem no_missed_update s w :
  sys_ok s -> In w (s_ws s) -> w_pc w = PWaiting -> forallb slot_quiet (w_slots w) = true ->
  hd_error (w_sent w) = Some (cur_status (s_vals s) (w_slots w)).
Proof.
  unfold sys_ok. rewrite Forall_forall. intros H Hin Hpc Hq.
  assert (Ha : active (w_pc w) = true) by (rewrite Hpc; reflexivity).
  destruct (H w Hin Ha) as (Hs & -> & _). unfold cur_status. do 2 f_equal. apply map_ext_in. intros sl Hsl.
  rewrite Forall_forall in Hs. rewrite forallb_forall in Hq. destruct (Hs sl Hsl) as [H1 H2].
  specialize (Hq sl Hsl). unfold slot_quiet in Hq. destruct (sl_wait sl); try discriminate. exact (H1 (H2 eq_refl)).
Qed.

(* what Watch must report for a service *)
Definition watch_status (reg : registry) (vals : list st) (name : Z) : resp :=
  match lookup reg name with
  | None => R_SERVICE_UNKNOWN
  | Some [] => R_SERVING
  | Some cs => agg_status (map (val_of vals) cs)
  end.

Theorem watch_first_message s name slow :
  exists w, s_ws (wstep s (OWatch name slow)) = s_ws s ++ [w] /\
            w_sent w = [watch_status (s_reg s) (s_vals s) name].
Proof.
  exists (new_watcher (s_reg s) (s_vals s) name slow). split; [reflexivity|].
  (* for an unregistered service and for one without checks new_watcher sends the codes probed from the
     source (watch_unregistered_resp, watch_empty_resp in Gen.FactsC19); that they are the two constants
     watch_status names is checked here, by evaluation *)
  unfold new_watcher, watch_status. destruct (lookup (s_reg s) name) as [[|c cs]|]; try reflexivity.
  cbn [w_sent]. unfold cur_status. rewrite map_map. reflexivity.
Qed.

Lemma local_step_sent vals op w :
  w_sent (local_step vals op w) = w_sent w \/
  w_sent (local_step vals op w) = cur_status vals (w_slots (local_step vals op w)) :: w_sent w.
Proof.
  unfold local_step. destruct (negb (active (w_pc w))); [left; reflexivity|].
  destruct op as [p| | | |b|]; try (left; reflexivity).
  - destruct (pc_eqb (w_pc w) PWaiting && wait_returns (w_slots w)); left; reflexivity.
  - destruct (pc_eqb (w_pc w) PWaking && watch_segment_atomic); [right | left]; reflexivity.
  - destruct (pc_eqb (w_pc w) PSending); left; reflexivity.
Qed.

Lemma on_set_sent i c w : w_sent (on_set i c w) = w_sent w.
Proof. unfold on_set. destruct (active (w_pc w) && c && notifies); reflexivity. Qed.

Theorem watch_messages_truthful s op k w w' :
  nth_error (s_ws s) k = Some w -> nth_error (s_ws (wstep s op)) k = Some w' ->
  w_sent w' = w_sent w \/ w_sent w' = cur_status (s_vals s) (w_slots w') :: w_sent w.
Proof.
  intros H H'. destruct op as [i v|name slow|j op]; cbn [wstep] in H'.
  - destruct (Nat.ltb i (length (s_vals s))); [|left; congruence].
    cbn [s_ws] in H'. rewrite nth_error_map, H in H'. injection H' as <-. left. apply on_set_sent.
  - cbn [s_ws] in H'. rewrite nth_error_app1 in H' by (apply nth_error_Some; congruence).
    left. congruence.
  - cbn [s_ws] in H'. rewrite nth_error_upd_nth, H in H'. destruct (Nat.eqb k j).
    + injection H' as <-. apply local_step_sent.
    + left. congruence.
Qed.

(* Termination measure of the internal steps.  A wait task only moves down: woken, or new with its event
   set (6) -> done (5); new with its event clear (1) -> suspended (0).  The Watch task goes PSending (4) ->
   PWaiting (3) -> PWaking (2) and from there back up, which costs at most 2; that step renews at least
   one finished wait task (5 -> 1), which pays 4. *)
Definition slot_mu (sl : slot) : nat :=
  match sl_wait sl with
  | WNew => if sl_ev sl then 6 else 1
  | WBlocked => 0
  | WWoken => 6
  | WDone | WCancelled => 5
  end.

Definition pc_mu (pc : wpc) : nat :=
  match pc with PSending => 4 | PWaiting => 3 | PWaking => 2 | _ => 0 end.

Definition slots_mu (sls : list slot) : nat := fold_right (fun sl n => (slot_mu sl + n)%nat) O sls.

Definition w_mu (w : watcher) : nat :=
  if active (w_pc w) then (pc_mu (w_pc w) + slots_mu (w_slots w))%nat else O.

Definition sys_mu (s : wsys) : nat := fold_right (fun w n => (w_mu w + n)%nat) O (s_ws s).

Definition runnable (x : wst) : bool := match x with WNew | WWoken => true | _ => false end.

Definition lenabled (op : lop) (w : watcher) : bool :=
  active (w_pc w) &&
  match op with
  | LWaitRun p => match nth_error (w_slots w) p with Some sl => runnable (sl_wait sl) | None => false end
  | LCompl => pc_eqb (w_pc w) PWaiting && wait_returns (w_slots w)
  | LRunW => pc_eqb (w_pc w) PWaking
  | LSendDone => pc_eqb (w_pc w) PSending
  | _ => false
  end.

Definition enabled (s : wsys) (op : wop) : bool :=
  match op with
  | OLocal k lop => match nth_error (s_ws s) k with Some w => lenabled lop w | None => false end
  | _ => false
  end.

Lemma wait_run_mu sl : runnable (sl_wait sl) = true -> (slot_mu (wait_run sl) < slot_mu sl)%nat.
Proof.
  unfold wait_run, slot_mu. destruct (sl_wait sl); try discriminate; intros _; cbn; [destruct (sl_ev sl); cbn|]; lia.
Qed.

(* a renewed wait task pays for the Watch task's way back to send_message *)
Lemma reset_slot_mu vals sl :
  (slot_mu (reset_slot vals sl) + (if wait_done (sl_wait sl) then 4 else 0) <= slot_mu sl)%nat.
Proof. rewrite reset_slot_eq. unfold slot_mu. destruct (sl_wait sl); cbn; try lia; destruct (sl_ev sl); lia. Qed.

Lemma slots_mu_reset vals sls :
  (slots_mu (map (reset_slot vals) sls) + (if any_done sls then 4 else 0) <= slots_mu sls)%nat.
Proof.
  induction sls as [|sl r IH]; [cbn; lia|]. pose proof (reset_slot_mu vals sl) as H. unfold any_done in *.
  cbn [map slots_mu fold_right existsb]. fold (slots_mu (map (reset_slot vals) r)). fold (slots_mu r).
  destruct (wait_done (sl_wait sl)), (existsb (fun x => wait_done (sl_wait x)) r); cbn [orb]; lia.
Qed.

Lemma pc_eqb_eq a b : pc_eqb a b = true -> a = b.
Proof. destruct a, b; try discriminate; reflexivity. Qed.

Lemma local_step_decreases vals op w :
  watcher_ok vals w -> lenabled op w = true -> (w_mu (local_step vals op w) < w_mu w)%nat.
Proof.
  intros Hw He. unfold lenabled in He. apply andb_true_iff in He. destruct He as [Ha He].
  destruct (Hw Ha) as (_ & _ & Hk). unfold local_step, w_mu. rewrite Ha. cbn [negb].
  destruct op as [p| | | |b|]; try discriminate.
  - cbn [w_pc w_slots]. rewrite Ha. destruct (nth_error (w_slots w) p) as [sl|] eqn:N; [|discriminate].
    apply Nat.add_lt_mono_l, (sum_upd_nth slot_mu _ _ _ _ N), wait_run_mu, He.
  - rewrite He. apply andb_true_iff in He. destruct He as [P _]. rewrite (pc_eqb_eq _ _ P).
    cbn [w_pc w_slots active pc_mu]. lia.
  - change watch_segment_atomic with true. rewrite He. cbn [andb w_pc w_slots].
    apply pc_eqb_eq in He. pose proof (slots_mu_reset vals (w_slots w)) as R. rewrite (Hk He) in R. rewrite He.
    destruct (w_slow w); cbn [active pc_mu]; lia.
  - rewrite He. rewrite (pc_eqb_eq _ _ He). cbn [w_pc w_slots active pc_mu]. lia.
Qed.

Lemma wstep_decreases s op :
  sys_ok s -> internal op = true -> enabled s op = true -> (sys_mu (wstep s op) < sys_mu s)%nat.
Proof.
  intros Hs Hi He. destruct op as [i v|name slow|k op]; try discriminate.
  cbn [enabled] in He. destruct (nth_error (s_ws s) k) as [w|] eqn:N; [|discriminate].
  apply (sum_upd_nth w_mu _ _ _ _ N), local_step_decreases; [exact (sys_ok_nth s k w Hs N) | exact He].
Qed.

Lemma wait_run_id sl : runnable (sl_wait sl) = false -> wait_run sl = sl.
Proof. unfold wait_run. destruct (sl_wait sl); try reflexivity; discriminate. Qed.

Lemma local_step_disabled vals k op w :
  internal (OLocal k op) = true -> lenabled op w = false -> local_step vals op w = w.
Proof.
  intros Hop He. unfold lenabled in He. unfold local_step.
  destruct (active (w_pc w)); cbn [negb andb] in *; [|reflexivity].
  destruct op as [p| | | |b|]; try discriminate; try (rewrite He; reflexivity).
  destruct w as [pc slow sls sent]. cbn [w_pc w_slow w_slots w_sent] in *. f_equal.
  apply upd_nth_id. intros sl N. rewrite N in He. apply wait_run_id, He.
Qed.

Lemma wstep_disabled s op : internal op = true -> enabled s op = false -> wstep s op = s.
Proof.
  intros Hi He. destruct op as [i v|name slow|k op]; try discriminate.
  cbn [wstep]. destruct s as [reg vals ws]. cbn [s_reg s_vals s_ws] in *. f_equal.
  apply upd_nth_id. intros w N. cbn [enabled s_ws] in He. rewrite N in He.
  exact (local_step_disabled vals k op w Hi He).
Qed.

Lemma quiet_no_step k w op :
  watcher_quiet w = true -> internal (OLocal k op) = true -> lenabled op w = false.
Proof.
  intros Hq Hop. unfold watcher_quiet in Hq. unfold lenabled.
  destruct (w_pc w); try discriminate; try reflexivity.
  rewrite forallb_forall in Hq. cbn [active andb]. destruct op as [p| | | |b|]; try discriminate; try reflexivity.
  - destruct (nth_error (w_slots w) p) as [sl|] eqn:N; [|reflexivity].
    specialize (Hq sl (nth_error_In _ _ N)). unfold slot_quiet in Hq. destruct (sl_wait sl); try discriminate; reflexivity.
  - cbn. destruct (any_done (w_slots w)) eqn:E; [|reflexivity].
    apply existsb_exists in E. destruct E as (sl & Hin & D). specialize (Hq sl Hin).
    unfold slot_quiet in Hq. destruct (sl_wait sl); discriminate.
Qed.

Lemma quiescent_no_step s op : quiescent s = true -> internal op = true -> enabled s op = false.
Proof.
  intros Hq Hi. destruct op as [i v|name slow|k op]; try discriminate.
  cbn [enabled]. destruct (nth_error (s_ws s) k) as [w|] eqn:N; [|reflexivity].
  apply (quiet_no_step k); [|exact Hi].
  unfold quiescent in Hq. rewrite forallb_forall in Hq. apply Hq. eapply nth_error_In, N.
Qed.

Lemma unquiet_can_step k w :
  watcher_quiet w = false -> exists op, internal (OLocal k op) = true /\ lenabled op w = true.
Proof.
  unfold watcher_quiet, lenabled. destruct (w_pc w); try discriminate; intro Q.
  - exists LSendDone. split; reflexivity.
  - (* PWaiting: a wait task that is not suspended can run, or has finished and makes asyncio.wait return *)
    destruct (forallb_false_nth _ _ Q) as (p & sl & N & Qs). unfold slot_quiet in Qs.
    destruct (runnable (sl_wait sl)) eqn:R.
    + exists (LWaitRun p). rewrite N. split; [reflexivity | exact R].
    + exists LCompl. split; [reflexivity|]. cbn. apply existsb_exists. exists sl.
      split; [eapply nth_error_In, N|]. destruct (sl_wait sl); try discriminate; reflexivity.
  - exists LRunW. split; reflexivity.
Qed.

Lemma unquiescent_can_step s :
  quiescent s = false -> exists op, internal op = true /\ enabled s op = true.
Proof.
  intro Q. destruct (forallb_false_nth _ _ Q) as (k & w & N & Qw).
  destruct (unquiet_can_step k w Qw) as (op & Hop & He).
  exists (OLocal k op). split; [exact Hop|]. cbn [enabled]. rewrite N. exact He.
Qed.

Lemma wstep_internal_vals s op : internal op = true -> s_vals (wstep s op) = s_vals s.
Proof. destruct op as [i v|name slow|k op]; try discriminate. reflexivity. Qed.

Theorem watch_settles s :
  sys_ok s ->
  exists ops, forallb internal ops = true /\ (length ops <= sys_mu s)%nat /\
              quiescent (wrun s ops) = true /\ s_vals (wrun s ops) = s_vals s /\
              (forall w, In w (s_ws (wrun s ops)) -> w_pc w = PWaiting ->
                         hd_error (w_sent w) = Some (cur_status (s_vals s) (w_slots w))).
Proof.
  remember (sys_mu s) as n eqn:E. revert s E.
  induction n as [n IH] using lt_wf_ind. intros s E Hs.
  destruct (quiescent s) eqn:Q.
  - exists []. repeat split; simpl; auto; [lia|]. intros w Hin Hpc. apply no_missed_update; auto.
    unfold quiescent in Q. rewrite forallb_forall in Q. specialize (Q w Hin).
    unfold watcher_quiet in Q. rewrite Hpc in Q. exact Q.
  - destruct (unquiescent_can_step s Q) as [op [Hi He]].
    pose proof (wstep_decreases s op Hs Hi He) as L.
    destruct (IH (sys_mu (wstep s op)) ltac:(lia) (wstep s op) eq_refl (wstep_ok s op Hs))
      as (ops & A & B & C & D & F).
    exists (op :: ops). cbn [forallb length wrun fold_left]. fold (wrun (wstep s op) ops).
    rewrite Hi, A, C, D, <- (wstep_internal_vals s op Hi). repeat split; [lia | exact F].
Qed.

Fixpoint all_enabled (s : wsys) (ops : list wop) : bool :=
  match ops with
  | [] => true
  | op :: r => internal op && enabled s op && all_enabled (wstep s op) r
  end.

Theorem watch_schedules_terminate s ops :
  sys_ok s -> all_enabled s ops = true -> (length ops + sys_mu (wrun s ops) <= sys_mu s)%nat.
Proof.
  revert s. induction ops as [|op r IH]; intros s Hs H; cbn [length wrun fold_left]; [simpl; lia|].
  cbn [all_enabled] in H. apply andb_true_iff in H. destruct H as [H H3].
  apply andb_true_iff in H. destruct H as [H1 H2].
  pose proof (wstep_decreases s op Hs H1 H2).
  specialize (IH (wstep s op) (wstep_ok s op Hs) H3). unfold wrun in IH. lia.
Qed.

Theorem quiescent_stays s ops :
  quiescent s = true -> forallb internal ops = true -> wrun s ops = s.
Proof.
  revert s. induction ops as [|op r IH]; intros s Q H; [reflexivity|].
  cbn [forallb] in H. apply andb_true_iff in H. destruct H as [H1 H2].
  cbn [wrun fold_left]. rewrite (wstep_disabled s op H1 (quiescent_no_step s op Q H1)). apply IH; assumption.
Qed.

Lemma fifo_pass_is_run s q : fst (fifo_pass s q) = wrun s q.
Proof.
  revert s. induction q as [|op r IH]; intros s; [reflexivity|].
  cbn [fifo_pass wrun fold_left]. specialize (IH (wstep s op)).
  destruct (fifo_pass (wstep s op) r) as [s' n]. cbn [fst] in *. exact IH.
Qed.

Lemma after_fifo_pass sq s' :
  (exists ops, s' = wrun (fst (fifo_pass (fst sq) (snd sq))) ops) -> exists ops, s' = wrun (fst sq) ops.
Proof.
  intros [ops ->]. exists (snd sq ++ ops). rewrite fifo_pass_is_run. unfold wrun. rewrite fold_left_app. reflexivity.
Qed.

Lemma fifo_iters_is_run n sq : exists ops, fst (fifo_iters n sq) = wrun (fst sq) ops.
Proof.
  revert sq. induction n as [|n IH]; intros sq; [exists []; reflexivity|]. apply after_fifo_pass, IH.
Qed.

Lemma fifo_settle_is_run n sq : exists ops, fst (fifo_settle n sq) = wrun (fst sq) ops.
Proof.
  revert sq. induction n as [|n IH]; intros sq; [exists []; reflexivity|].
  cbn [fifo_settle]. destruct (snd sq) eqn:E; [exists []; reflexivity|]. rewrite <- E. apply after_fifo_pass, IH.
Qed.

Theorem fifo_is_schedule fuel s q c :
  exists ops, fst (run_cmd fuel (s, q) c) = wrun s ops.
Proof.
  destruct c as [op|op|k|n|]; cbn [run_cmd].
  - exists [op]. reflexivity.
  - exists []. reflexivity.
  - destruct (nth_error (s_ws s) k) as [w|]; [destruct (pc_eqb (w_pc w) PSending)|]; exists []; reflexivity.
  - apply (fifo_iters_is_run n (s, q)).
  - apply (fifo_settle_is_run fuel (s, q)).
Qed.

Definition wreach (s : wsys) : Prop := exists reg vals ops, s = wrun (winit reg vals) ops.

Lemma wreach_ok s : wreach s -> sys_ok s.
Proof. intros [reg [vals [ops ->]]]. apply wrun_ok, winit_ok. Qed.
