(* Non-vacuity examples for C12: concrete non-trivial histories satisfy the hypotheses of the
   totality theorems and end in the states the real code ends in; tolerated events leave a state
   with live calls unchanged; a violation shuts everything down.  Decided by vm_compute. *)
From Coq Require Import String ZArith List Bool.
From GV Require Import Lib.Str Gen.Facts Model.Dispatch Proofs.C12Proofs.
Import ListNotations.
Open Scope Z_scope.

(* a server connection: settings, two requests, data, an unknown frame, ALTSVC, PING, a reset
   of stream 3 followed by late DATA for it, handlers finishing, DATA for the finished stream 1
   (credit returned), two GOAWAYs in one batch, a private h2 event, and input after the close *)
Definition ex_server_history : list input :=
  [ IData (H2Events [RemoteSettingsChanged true true; RequestReceived 1; DataReceived 1 5 5;
                     UnknownFrameReceived 11 0; StreamEnded 1]);
    ISetWrapper 1;
    IData (H2Events [RequestReceived 3; StreamReset 3 8 true; DataReceived 3 4 4; PingReceived;
                     AlternativeServiceAvailable; PriorityUpdated 9]);
    IFinish 3; IRead 1; IFinish 1;
    IData (H2Events [DataReceived 1 7 7; WindowUpdated 1 10; StreamReset 1 0 true; StreamEnded 3]);
    IData (H2Events [RequestReceived 5]); ISetWrapper 5;
    IData (H2Events [ConnectionTerminated 0; ConnectionTerminated 0; OtherEvent (s2z "_ResponseSent");
                     RequestReceived 7]);
    IData (H2Events [RequestReceived 9]) ].

Example ex_server_wf : forallb input_wf ex_server_history = true.
Proof. vm_compute; reflexivity. Qed.

(* the final state: closed; stream 5 (the only one still registered) terminated by the GOAWAY, its
   task cancelled and in _cancelled; credit for the late DATA on the finished stream 1;
   streams 7 and 9 never accepted *)
Example ex_server_result :
  run (init Server) ex_server_history =
  Ok (mk_state Server true true
        (mk_hstate true [mk_trec 5 true true])
        [(5, mk_srec true (Some (RGoaway 0)) false false false false false 0 false 0)]
        16 2 2 true false [(1, 7)] []).
Proof. vm_compute; reflexivity. Qed.

(* a client connection with two calls: 1xx, response, padded/empty data, trailers, end; PUSH_PROMISE,
   unknown frames; a protocol violation closes it while call 3 is pending *)
Definition ex_client_history : list input :=
  [ IRegister 1; IRegister 3;
    IData (H2Events [InformationalResponseReceived 1; ResponseReceived 1; DataReceived 1 0 0;
                     DataReceived 1 10 14; PushedStreamReceived 1 2; UnknownFrameReceived 79 1]);
    IRead 1;
    IData (H2Events [TrailersReceived 1; StreamEnded 1; SettingsAcknowledged; PingAckReceived;
                     ResponseReceived 2; DataReceived 2 3 3]);
    IRelease 1;
    IData (H2Events [WindowUpdated 0 100; StreamReset 1 8 true; DataReceived 1 2 2]);
    IData (H2Events [RequestReceived 4; DataReceived 4 6 6; RequestReceived 6; StreamReset 6 8 true]);
    IData H2UnicodeDecodeError;
    IData (H2Events [ResponseReceived 3]);
    IConnLost ].

Example ex_client_wf : forallb input_wf ex_client_history = true.
Proof. vm_compute; reflexivity. Qed.

(* call 3 is still registered; it was terminated with 'Protocol error' (undecodable header block) and
   then, by the second close(), with 'Connection lost' (the last error wins); the data of the pushed
   stream 2, of the released stream 1 and of the refused stream 4 was credited back; stream 4 was
   refused with RST_STREAM, stream 6 (already reset by the peer in the same batch) without *)
Example ex_client_result :
  run (init Client) ex_client_history =
  Ok (mk_state Client true true (mk_hstate true [])
        [(3, mk_srec true (Some RConnLost) false false false false true 0 false 0)]
        21 1 2 true false [(2, 3); (1, 2); (4, 6)] [4]).
Proof. vm_compute; reflexivity. Qed.

(* tolerance on a state with live calls *)
Definition ex_live_client : state :=
  mk_state Client false false (mk_hstate false [])
    [(3, mk_srec true None true false true false false 2 false 37);
     (5, mk_srec true None false false false false false 0 false 0)]
    37 4 1 false true [] [].

Definition ex_tolerated : list event :=
  [ UnknownFrameReceived 11 0; UnknownFrameReceived 255 3; AlternativeServiceAvailable;
    PriorityUpdated 3; PriorityUpdated 2147483647; PingReceived; InformationalResponseReceived 3;
    PushedStreamReceived 3 2; SettingsAcknowledged; OtherEvent (s2z "_TrailersSent") ].

Example ex_tolerated_hyp :
  forallb tolerated ex_tolerated = true /\ forallb event_wf ex_tolerated = true.
Proof. split; vm_compute; reflexivity. Qed.

Example ex_tolerated_unchanged : run_events ex_live_client ex_tolerated = Ok ex_live_client.
Proof. vm_compute; reflexivity. Qed.

(* events for the finished stream 1: nothing but statistics and the returned credit changes *)
Example ex_unregistered :
  run_events ex_live_client
    [ResponseReceived 1; DataReceived 1 9 12; TrailersReceived 1; WindowUpdated 1 5; StreamEnded 1;
     StreamReset 1 5 true] =
  Ok (mk_state Client false false (mk_hstate false [])
        [(3, mk_srec true None true false true false false 2 false 37);
         (5, mk_srec true None false false false false false 0 false 0)]
        46 5 2 false true [(1, 12)] []).
Proof. vm_compute; reflexivity. Qed.

(* orderly shutdown: a protocol violation with two calls pending *)
Example ex_violation :
  data_received ex_live_client H2ProtocolError =
  Ok (mk_state Client true true (mk_hstate true [])
        [(3, mk_srec true (Some RProtocolError) true false true false false 2 false 37);
         (5, mk_srec true (Some RProtocolError) false false false false false 0 false 0)]
        37 4 1 false false [] []).
Proof. vm_compute; reflexivity. Qed.

Example ex_violation_shut :
  match data_received ex_live_client H2ProtocolError with
  | Ok s' => shut_down RProtocolError s' = true /\ st_closed ex_live_client = false
  | Raises _ => False
  end.
Proof. vm_compute; auto. Qed.

(* the server side: a handler whose stream has no wrapper yet is still cancelled by handler.close() *)
Definition ex_live_server : state :=
  mk_state Server false false
    (mk_hstate false [mk_trec 1 true false; mk_trec 3 false true; mk_trec 5 true false])
    [(1, mk_srec true None false false false false false 1 false 8);
     (3, mk_srec true (Some (RRemoteReset 8)) false false false false false 0 false 0);
     (5, fresh_srec false)]
    8 0 1 false false [] [].

Example ex_live_server_inv : inv_b ex_live_server = true.
Proof. vm_compute; reflexivity. Qed.

Example ex_server_goaway :
  run_events ex_live_server [DataReceived 1 4 4; ConnectionTerminated 2; StreamReset 3 8 true] =
  Ok (mk_state Server true true
        (mk_hstate true [mk_trec 1 true true; mk_trec 3 false true; mk_trec 5 true true])
        [(1, mk_srec true (Some (RGoaway 2)) false false false false false 2 false 12);
         (3, mk_srec true (Some (RGoaway 2)) false false false false false 0 false 0);
         (5, fresh_srec false)]
        12 0 1 false false [] []).
Proof. vm_compute; reflexivity. Qed.

(* the inputs that used to raise out of data_received on a client (D21 and its residue) now end in
   ordinary states: the stream is refused (RST_STREAM only while it is still closable) and released *)
Example ex_client_witness :
  run (init Client) client_witness =
  Ok (mk_state Client false false (mk_hstate false [])
        [(1, fresh_srec true)] 0 0 0 true false [] [2]).
Proof. vm_compute; reflexivity. Qed.
Example ex_client_witness_goaway :
  run (init Client) client_witness_goaway =
  Ok (mk_state Client true true (mk_hstate true [])
        [(1, mk_srec true (Some (RGoaway 0)) false false false false false 0 false 0)]
        0 0 0 true false [] []).
Proof. vm_compute; reflexivity. Qed.
Example ex_client_witness_reset :
  run (init Client) client_witness_reset =
  Ok (mk_state Client false false (mk_hstate false [])
        [(1, fresh_srec true)] 0 0 1 true false [] []).
Proof. vm_compute; reflexivity. Qed.
(* the same prefix behaves differently depending on what h2 has already seen of the batch *)
Example ex_lookahead :
  run_events_in [ConnectionTerminated 0] (init Client) [RequestReceived 2] <>
  run_events_in [] (init Client) [RequestReceived 2].
Proof. vm_compute. discriminate. Qed.

(* a repeated StreamReset (was a KeyError in server.Handler.cancel) is tolerated: the second one only
   terminates the wrapper again; the task row is unchanged (popped and cancelled once) *)
Example ex_server_witness :
  run (init Server) server_witness =
  Ok (mk_state Server false false (mk_hstate false [mk_trec 1 false true])
        [(1, fresh_srec false)] 0 0 2 false false [] []).
Proof. vm_compute; reflexivity. Qed.

(* a stream that ends WITHOUT trailers (DATA with END_STREAM): __ended__ queues the eof marker and
   sets trailers_received, so a call waiting for trailers wakes up (recv_trailers returns []) *)
Example ex_end_without_trailers :
  run_events ex_live_client [StreamEnded 5] =
  Ok (mk_state Client false false (mk_hstate false [])
        [(3, mk_srec true None true false true false false 2 false 37);
         (5, mk_srec true None false false false true false 1 true 0)]
        37 5 1 false true [] []).
Proof. vm_compute; reflexivity. Qed.
