(* Non-vacuity examples for C14: the hypotheses of the theorems are satisfiable by non-trivial
   inputs, the model computes on them what the real functions return in Python, and the predicates really
   exclude what the property calls invalid.
   Everything here is decided by vm_compute. *)
From Coq Require Import String ZArith List Bool.
From GV Require Import Lib.Str Gen.Facts Model.Base64 Model.Metadata Model.Utf8 Model.Percent
  Model.StatusWire.
Import ListNotations.
Open Scope Z_scope.

(* '100% é\r\n😀 %41€\x00~' : '%', CR LF, NUL, non-BMP, text that looks like an escape, all four
   UTF-8 length classes *)
Definition ex_msg : list Z :=
  [49; 48; 48; 37; 32; 233; 13; 10; 128512; 32; 37; 52; 49; 8364; 0; 126].

Example ex_msg_scalar : scalars_ok ex_msg = true.
Proof. vm_compute; reflexivity. Qed.

(* encode_grpc_message(...) == '100%25 %C3%A9%0D%0A%F0%9F%98%80 %2541%E2%82%AC%00~' *)
Example ex_msg_encoded :
  encode_grpc_message ex_msg = Some (s2z "100%25 %C3%A9%0D%0A%F0%9F%98%80 %2541%E2%82%AC%00~").
Proof. vm_compute; reflexivity. Qed.

Example ex_msg_back :
  decode_grpc_message (s2z "100%25 %C3%A9%0D%0A%F0%9F%98%80 %2541%E2%82%AC%00~") = ex_msg.
Proof. vm_compute; reflexivity. Qed.

Example ex_msg_wire :
  well_escaped (s2z "100%25 %C3%A9%0D%0A%F0%9F%98%80 %2541%E2%82%AC%00~") = true.
Proof. vm_compute; reflexivity. Qed.

(* the boundaries of the four length classes and of the surrogate gap *)
Example ex_boundaries :
  map utf8_enc1 [127; 128; 2047; 2048; 55295; 57344; 65535; 65536; 1114111] =
  [[127]; [194; 128]; [223; 191]; [224; 160; 128]; [237; 159; 191]; [238; 128; 128];
   [239; 191; 191]; [240; 144; 128; 128]; [244; 143; 191; 191]].
Proof. vm_compute; reflexivity. Qed.

(* lone surrogates (also when they form a UTF-16 pair) are refused: UnicodeEncodeError *)
Example ex_surrogate_refused :
  scalars_ok [97; 55296] = false /\ encode_grpc_message [97; 55296] = None /\
  encode_grpc_message [55357; 56832] = None.
Proof. vm_compute; repeat split; reflexivity. Qed.

(* well_escaped refuses what the property forbids on the wire *)
Example ex_not_well_escaped :
  map well_escaped [s2z "%"; s2z "%4"; s2z "%4a"; s2z "%zz"; [10]; [127]; [233]; s2z "ok %41"] =
  [false; false; false; false; false; false; false; true].
Proof. vm_compute; reflexivity. Qed.

(* received values: broken escapes stay literally, escapes that are not UTF-8 become U+FFFD the
   way CPython replaces them, lower-case hex digits are accepted, characters that are not ASCII
   are kept *)
Example ex_received :
  map decode_grpc_message
      [s2z "%C3"; s2z "%zz%"; s2z "%ED%A0%80"; s2z "%e2%82%ac"; s2z "%F0%9F%98"; s2z "a%2";
       s2z "%C3%A9" ++ [20013] ++ s2z "%41"; []] =
  [[65533]; [37; 122; 122; 37]; [65533; 65533; 65533]; [8364]; [65533]; [97; 37; 50];
   [233; 20013; 65]; []].
Proof. vm_compute; reflexivity. Qed.

(* NOT_FOUND with a message and details bytes: hypotheses of the round trip, and the trailers *)
Definition ex_details : list Z := [8; 5; 18; 1; 109].     (* google.rpc.Status(code=5, message='m') *)

Example ex_status_hyps :
  In 5 status_values /\ 5 <> status_ok /\ msg_valid (Some ex_msg) = true /\
  det_valid (Some ex_details) = true.
Proof. vm_compute. repeat split; auto 10; discriminate. Qed.

Example ex_trailers :
  status_trailers true 5 (Some (s2z "a%b")) (Some ex_details) =
  Some [(s2z "grpc-status", s2z "5"); (s2z "grpc-message", s2z "a%25b");
        (s2z "grpc-status-details-bin", s2z "CAUSAW0")].
Proof. vm_compute; reflexivity. Qed.

Example ex_client :
  process_grpc_status true
    [(s2z "grpc-status", s2z "5"); (s2z "grpc-message", s2z "a%25b");
     (s2z "grpc-status-details-bin", s2z "CAUSAW0")] =
  CStatus 5 (Some (s2z "a%b")) (Some ex_details).
Proof. vm_compute; reflexivity. Qed.

(* None and the empty message are different reports and stay different *)
Example ex_none_vs_empty :
  status_trailers true 5 None None = Some [(s2z "grpc-status", s2z "5")] /\
  status_trailers true 5 (Some []) None = Some [(s2z "grpc-status", s2z "5"); (s2z "grpc-message", [])] /\
  process_grpc_status true [(s2z "grpc-status", s2z "5")] = CStatus 5 None None /\
  process_grpc_status true [(s2z "grpc-status", s2z "5"); (s2z "grpc-message", [])] = CStatus 5 (Some []) None.
Proof. vm_compute; repeat split; reflexivity. Qed.

(* every member of Status renders and parses (the finite fact behind the round trip) *)
Example ex_all_members :
  map (fun n => py_int (decimal n)) status_values = map Some status_values /\
  length status_values = 17%nat.
Proof. vm_compute; split; reflexivity. Qed.

(* a complete trailers-only block: protocol headers, status, user metadata *)
Example ex_block :
  status_free [(s2z ":status", s2z "200"); (s2z "content-type", s2z "application/grpc+proto")] = true /\
  md_typed [(s2z "x-k", VStr (s2z "v")); (s2z "blob-bin", VBytes [255])] = true /\
  encode_metadata [(s2z "x-k", VStr (s2z "v")); (s2z "blob-bin", VBytes [255])] =
    Ok [(s2z "x-k", s2z "v"); (s2z "blob-bin", s2z "/w")].
Proof. vm_compute; repeat split; reflexivity. Qed.

(* the client's int() on what a peer may send as grpc-status *)
Example ex_py_int :
  map py_int [s2z "5"; s2z " 5"; s2z "+5"; s2z "05"; s2z "1_6"; s2z "5 "; s2z "-1"; s2z "";
              s2z "x"; s2z "5_"; s2z "_5"; s2z "1__0"; s2z "+ 5"; s2z "5.0"] =
  [Some 5; Some 5; Some 5; Some 5; Some 16; Some 5; Some (-1); None; None; None; None; None;
   None; None].
Proof. vm_compute; reflexivity. Qed.

Example ex_client_errors :
  process_grpc_status true [] = CMissing /\
  process_grpc_status true [(s2z "grpc-status", s2z "99")] = CInvalid /\
  process_grpc_status true [(s2z "grpc-status", s2z "x")] = CInvalid /\
  (* duplicates: dict(headers) keeps the last *)
  process_grpc_status true [(s2z "grpc-status", s2z "5"); (s2z "grpc-status", s2z "7")] = CStatus 7 None None /\
  (* malformed base64 / non-ASCII details: the status survives, details are None *)
  process_grpc_status true [(s2z "grpc-status", s2z "5"); (s2z "grpc-status-details-bin", s2z "A")] = CStatus 5 None None /\
  process_grpc_status true [(s2z "grpc-status", s2z "5"); (s2z "grpc-status-details-bin", [233])] = CStatus 5 None None.
Proof. vm_compute; repeat split; reflexivity. Qed.
