(* C05 -- lemmas about the server-side deadline model (Model/ServerDeadline.v); the derivation of
   the deadline from the headers reuses C15's theorems (hence its real-number axioms). *)
From Coq Require Import ZArith List Bool Lia Reals Lra.
From Flocq Require Import Core IEEE754.BinarySingleNaN IEEE754.Binary IEEE754.Bits.
From GV Require Import Lib.Str Gen.Facts Gen.FactsC05 Model.Timeout Model.ServerDeadline Proofs.C15Proofs.
Import ListNotations.
Open Scope Z_scope.

#[local] Instance prec53_ : Prec_gt_0 53 := prec53.
#[local] Instance emax1024_ : Prec_lt_emax 53 1024 := emax1024.
#[local] Instance fexp_valid : Valid_exp (SpecFloat.fexp 53 1024) := fexp_correct 53 1024 prec53.

(* `with deadline_wrapper, wrapper:`, and start()'s expired branch cancels, then raises
   (Gen/FactsC05.v): hence an expired deadline is answered DEADLINE_EXCEEDED whether or not the reply
   path suspends *)
Lemma expired_status_deadline rs : expired_status rs = StDeadline.
Proof. destruct rs; vm_compute; reflexivity. Qed.

(* the model is sensitive to both facts: wrapper entered first + a suspending reply path = no answer
   at all; start() without self.cancel(error) = UNKNOWN (the repaired defect D7) *)
Lemma expired_status_other_orders :
  expired_status_of [CMWrapper; CMDeadline] start_expired true = StNoAnswer /\
  expired_status_of [CMWrapper; CMDeadline] start_expired false = StDeadline /\
  (forall rs, expired_status_of handler_with_order [SA_raise] rs = StUnknown).
Proof. repeat split; try (intros [|]); vm_compute; reflexivity. Qed.

Lemma serve_no_header a hs h rs :
  timeout_values hs = [] ->
  let o := serve a hs h rs in
  o_timer o = None /\ o_cancel_at o = None /\ o_started o = true /\
  o_status o = final_status h (own_status (h_fin h)) /\ o_end_at o = fadd a (h_dur h).
Proof.
  intro H. destruct (from_headers_min hs) as (A & _). unfold serve. rewrite (A H). cbn. auto.
Qed.

Lemma serve_deadline a hs h rs :
  timeout_values hs <> [] -> Forall in_grammar (timeout_values hs) ->
  exists m ts,
    from_headers_timeout hs = Ok (Some m) /\
    (exists v, In v (timeout_values hs) /\ decode_timeout v = Ok m) /\
    (forall v x, In v (timeout_values hs) -> decode_timeout v = Ok x -> (Rnum m <= Rnum x)%R) /\
    py_add_float a m = Ok ts /\
    let o := serve a hs h rs in
    match time_remaining ts a with
    | None => o_status o = StDeadline /\ o_started o = false /\ o_timer o = None /\
              o_cancel_at o = None /\ o_end_at o = a
    | Some rem =>
        let when := fadd a rem in
        o_started o = true /\ o_timer o = Some when /\
        (flt (fadd a (h_dur h)) when = true ->
           o_cancel_at o = None /\ o_status o = final_status h (own_status (h_fin h)) /\
           o_end_at o = fadd a (h_dur h)) /\
        (flt (fadd a (h_dur h)) when = false ->
           o_cancel_at o = Some when /\ o_status o = final_status h StDeadline /\
           o_end_at o = match h_cancel h with CHonour => when
                                         | CSwallow extra _ => fadd when extra end)
    end.
Proof.
  intros Hne Hall. destruct (from_headers_min hs) as (_ & _ & A).
  destruct (A Hne Hall) as (m & Hm & (v & Hv & Hdv) & Hmin).
  assert (Hg : in_grammar v) by (rewrite Forall_forall in Hall; now apply Hall).
  (* Deadline.from_timeout: a decoded int is below 2^53, float(int) does not overflow *)
  assert (exists ts, py_add_float a m = Ok ts) as [ts Hts].
  { destruct m as [z|f]; cbn; [|eauto]. rewrite float_of_int_small; [eauto|].
    pose proof (decode_int_bound v z Hg Hdv). lia. }
  exists m, ts. split; [exact Hm|]. split; [exists v; auto|]. split; [exact Hmin|].
  split; [exact Hts|]. unfold serve. rewrite Hm, Hts.
  destruct (time_remaining ts a) as [rem|]; cbn zeta.
  - destruct (flt (fadd a (h_dur h)) (fadd a rem)) eqn:E; cbn;
      repeat split; try reflexivity; intros; try discriminate.
  - rewrite expired_status_deadline. cbn. auto.
Qed.

Lemma serve_own_timeout a hs h rs :
  h_fin h = FRaiseTimeout -> h_trailers_first h = false ->
  let o := serve a hs h rs in o_cancel_at o = None -> o_started o = true -> o_status o = StUnknown.
Proof.
  intros Hf Ht. unfold serve.
  destruct (from_headers_timeout hs) as [[m|]|[|]]; cbn; try discriminate.
  - destruct (py_add_float a m) as [ts|]; cbn; try discriminate.
    destruct (time_remaining ts a) as [rem|]; cbn; try discriminate.
    destruct (flt _ _); cbn; try discriminate.
    unfold final_status. rewrite Ht, Hf. reflexivity.
  - unfold final_status. rewrite Ht, Hf. reflexivity.
Qed.

Lemma serve_deadline_status_needs_header a hs h rs :
  o_status (serve a hs h rs) = StDeadline -> timeout_values hs <> [].
Proof.
  intros H E. destruct (serve_no_header a hs h rs E) as (_ & _ & _ & Hs & _).
  rewrite Hs in H. unfold final_status in H.
  destruct (h_trailers_first h); [discriminate|]. destruct (h_fin h); discriminate.
Qed.

Lemma fsub_nonpos ts a : fin ts = true -> fin a = true ->
  (0 <= R64 ts)%R -> (R64 ts <= R64 a)%R ->
  fin (fsub ts a) = true /\ (R64 (fsub ts a) <= 0)%R.
Proof.
  intros Ft Fa H0 Hle.
  pose proof (Bminus_correct 53 1024 prec53 emax1024 binop_nan_pl64 mode_NE ts a Ft Fa) as H.
  set (rr := round radix2 (SpecFloat.fexp 53 1024) (round_mode mode_NE)
                   (B2R 53 1024 ts - B2R 53 1024 a)) in *.
  assert (Hab : (Rabs rr <= Rabs (R64 a))%R).
  { unfold rr. apply abs_round_le_generic; auto with typeclass_instances.
    - apply generic_format_abs. apply generic_format_B2R.
    - unfold R64 in *. rewrite (Rabs_pos_eq (B2R 53 1024 a)) by lra.
      rewrite Rabs_left1 by lra. lra. }
  assert (Hlt : Rlt_bool (Rabs rr) (bpow radix2 1024) = true).
  { apply Rlt_bool_true. eapply Rle_lt_trans; [exact Hab|]. apply abs_B2R_lt_emax. }
  rewrite Hlt in H. destruct H as [H1 [H2 _]]. split; [exact H2|].
  unfold R64 at 1. unfold fsub. rewrite H1. fold rr.
  unfold rr. rewrite <- (round_0 radix2 (SpecFloat.fexp 53 1024) (round_mode mode_NE)).
  apply round_le; auto with typeclass_instances. unfold R64 in *. lra.
Qed.

(* nothing remains (time_remaining gives the int 0) whenever the deadline instant is not after now *)
Lemma time_remaining_none ts a : fin ts = true -> fin a = true ->
  (0 <= R64 ts)%R -> (R64 ts <= R64 a)%R -> time_remaining ts a = None.
Proof.
  intros Ft Fa H0 Hle. destruct (fsub_nonpos ts a Ft Fa H0 Hle) as [Fx Hx].
  unfold time_remaining, fpos. rewrite (cmp_float_q_correct _ 0 1 ltac:(lia) Fx).
  destruct (Rcompare_spec (R64 (fsub ts a)) (0 / 1)); try reflexivity. lra.
Qed.

(* a deadline instant not after the arrival instant, however it came about (tiny values absorbed
   by the float addition at a large clock value): expired as well *)
Lemma serve_expired a hs h rs m ts :
  fin a = true -> fin ts = true -> (0 <= R64 ts <= R64 a)%R ->
  from_headers_timeout hs = Ok (Some m) -> py_add_float a m = Ok ts ->
  serve a hs h rs = {| o_status := StDeadline; o_started := false; o_timer := None;
                    o_cancel_at := None; o_end_at := a |}.
Proof.
  intros Fa Ft Hr Hm Hts. unfold serve. rewrite Hm, Hts.
  rewrite (time_remaining_none ts a Ft Fa); [rewrite expired_status_deadline; reflexivity|lra|lra].
Qed.

Lemma fadd_zero_r a z : fin a = true -> fin z = true -> R64 z = 0%R ->
  fin (fadd a z) = true /\ R64 (fadd a z) = R64 a.
Proof.
  intros Fa Fz Hz.
  pose proof (Bplus_correct 53 1024 prec53 emax1024 binop_nan_pl64 mode_NE a z Fa Fz) as H.
  unfold R64 in Hz. rewrite Hz, Rplus_0_r in H.
  rewrite round_generic in H; auto with typeclass_instances; [|apply generic_format_B2R].
  rewrite Rlt_bool_true in H by apply abs_B2R_lt_emax.
  destruct H as [H1 [H2 _]]. split; [exact H2|exact H1].
Qed.

(* a governing grpc-timeout of value zero ('0n', '0S', ...): the deadline has passed on
   arrival at EVERY arrival instant -- DEADLINE_EXCEEDED, the handler never runs *)
Lemma serve_zero_timeout a hs h rs m :
  fin a = true -> (0 <= R64 a)%R ->
  from_headers_timeout hs = Ok (Some m) -> finnum m = true -> Rnum m = 0%R ->
  serve a hs h rs = {| o_status := StDeadline; o_started := false; o_timer := None;
                    o_cancel_at := None; o_end_at := a |}.
Proof.
  intros Fa Ha Hm Fm Rm.
  assert (X : exists ts, py_add_float a m = Ok ts /\ fin ts = true /\ R64 ts = R64 a).
  { destruct m as [z|f]; cbn in *.
    - apply eq_IZR in Rm. subst z. rewrite float_of_int_small by lia.
      destruct (f_of_Z_exact 0 ltac:(lia)) as [Hr Hf].
      destruct (fadd_zero_r a (f_of_Z 0) Fa Hf Hr) as [A B]. eexists. split; [reflexivity|auto].
    - destruct (fadd_zero_r a f Fa Fm Rm) as [A B]. eexists. split; [reflexivity|auto]. }
  destruct X as (ts & Hts & Ft & Rt). apply (serve_expired a hs h rs m ts); auto. lra.
Qed.
