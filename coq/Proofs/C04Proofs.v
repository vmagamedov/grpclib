(* C04 -- proofs.  The guard kernel (Model/GuardKernel.v): an inductive invariant over ALL label lists
   (all schedules, all resolutions of the environment's choices, all well-guarded paths), from which:
   once Wrapper.cancel has run, no task is suspended, every ready task finishes in its next scheduling
   step, and at quiescence every task is Done -- with the wrapper's error if it was blocked at a cancel
   or started afterwards.  Then the delivery of termination events and the scenario interpreter
   (Model/Termination.v), for any operation table; last, the GENERATED client operations. *)
From Coq Require Import List Bool Arith Lia ZArith.
From GV Require Import Model.StreamIR Model.StreamSem Model.GuardKernel Model.Termination.
Import ListNotations.

Definition head_await (a : path) : Prop := exists s r, a = AAwait s :: r.

Definition wrap_res (es : list err) (r : result) : Prop :=
  exists e, In e es /\ r = RRaise (XWrap e).

Definition suspended (mem : list nat) (i d : nat) (a : path) : Prop :=
  d = 1 /\ wgd 1 a = true /\ head_await a /\ In i mem.

(* result r of a task that was blocked at a cancel, or was started after one and reaches a guard
   (which is what `mark` other than MBefore records), is an error given to Wrapper.cancel *)
Definition cancel_res (es : list err) (tk : task) (r : result) : Prop :=
  (mark tk = MAtCancel -> wrap_res es r) /\
  (mark tk = MAfter -> first_enter (orig tk) = true -> wrap_res es r).

(* The invariant of task i.  A task waiting at an await is inside the guard and a member of the wrapper,
   so Wrapper.cancel reaches it: it is Blocked only while the wrapper holds no error, and once it does a
   woken task carries a pending cancellation. *)
Definition tinv (we : option err) (mem : list nat) (es : list err) (i : nat) (tk : task) : Prop :=
  match st tk with
  | Fresh => depth tk = 0 /\ acts tk = orig tk /\ wgd 0 (acts tk) = true /\ mark tk <> MAtCancel
  | Blocked => suspended mem i (depth tk) (acts tk) /\ we = None
  | Woken cp => suspended mem i (depth tk) (acts tk) /\ (cp = true <-> we <> None)
  | Done r => cancel_res es tk r
  end
  /\ (mark tk <> MBefore -> we <> None).

Definition kinv (s : kstate) : Prop :=
  (forall e, werr s = Some e -> In e (errs s)) /\
  forall i tk, nth_error (tasks s) i = Some tk -> tinv (werr s) (members s) (errs s) i tk.

Lemma nth_set_nth_eq {A} (l : list A) n x c :
  nth_error l n = Some c -> nth_error (set_nth n x l) n = Some x.
Proof.
  revert n. induction l as [|y r IH]; intros [|n] H; try discriminate; [reflexivity | exact (IH n H)].
Qed.

Lemma nth_set_nth_ne {A} (l : list A) n m x : n <> m -> nth_error (set_nth n x l) m = nth_error l m.
Proof.
  revert n m. induction l as [|y r IH]; intros [|n] [|m] H; simpl; try reflexivity; try congruence.
  apply IH. congruence.
Qed.

Lemma nth_mapi_from {A B} (f : nat -> A -> B) l : forall n i,
  nth_error (mapi_from f n l) i = option_map (f (n + i)) (nth_error l i).
Proof.
  induction l as [|x r IH]; intros n [|i]; simpl; try reflexivity.
  - rewrite Nat.add_0_r. reflexivity.
  - rewrite IH. replace (S n + i) with (n + S i) by lia. reflexivity.
Qed.

Lemma is_member_In i mem : is_member i mem = true <-> In i mem.
Proof.
  unfold is_member. rewrite existsb_exists. split.
  - intros [x [Hx He]]. apply Nat.eqb_eq in He. subst. exact Hx.
  - intro H. exists i. split; [exact H | apply Nat.eqb_refl].
Qed.

Lemma In_drop_ne i j mem : j <> i -> (In j (drop i mem) <-> In j mem).
Proof.
  intro H. unfold drop. rewrite filter_In. split; [tauto|]. intro Hj. split; [exact Hj|].
  apply negb_true_iff. apply Nat.eqb_neq. exact H.
Qed.

(* the task is suspended inside the guard or has finished; the others' membership is untouched *)
Definition exec_post (we : option err) (i : nat) (mem : list nat) (x : xres) : Prop :=
  (forall j, j <> i -> (In j (x_mem x) <-> In j mem)) /\
  match x_st x with
  | Blocked => suspended (x_mem x) i (x_depth x) (x_acts x) /\ we = None
  | Done _ => True
  | _ => False
  end.

Lemma exec_post_mem we i mem mem' x :
  (forall j, j <> i -> (In j mem' <-> In j mem)) -> exec_post we i mem' x -> exec_post we i mem x.
Proof. intros Hm [H Hs]. split; [|exact Hs]. intros j Hj. rewrite (H j Hj). exact (Hm j Hj). Qed.

Lemma finish_post we i d mem sd r : exec_post we i mem (finish we i d mem sd r).
Proof. destruct d; (split; [|exact I]); intros j Hj; [reflexivity | exact (In_drop_ne i j mem Hj)]. Qed.

Lemma exec_spec we i : forall a d mem sd ds,
  wgd d a = true -> (d = 1 -> In i mem /\ we = None) -> exec_post we i mem (exec we i a d mem sd ds).
Proof.
  assert (Hblock : forall s a mem sd, wgd 1 a = true -> In i mem /\ we = None ->
            exec_post we i mem {| x_mem := mem; x_sd := sd; x_acts := AAwait s :: a; x_depth := 1;
                                  x_st := Blocked |}).
  { intros s a mem sd Hwg [Hin Hwe]. split; [reflexivity|].
    split; [|exact Hwe]. repeat split; [exact Hwg | exists s, a; reflexivity | exact Hin]. }
  induction a as [|ac a IH]; intros d mem sd ds Hwg H1; [apply finish_post|].
  destruct ac; cbn [exec wgd] in Hwg |- *; try apply finish_post.
  - (* AEnter *)
    apply andb_prop in Hwg. destruct Hwg as [Hd Hwg]. apply Nat.eqb_eq in Hd. subst d.
    destruct we as [e|]; [apply finish_post|].
    apply exec_post_mem with (mem' := i :: mem).
    + intros j Hj. split; [intros [E|E]; [congruence | exact E] | right; assumption].
    + apply IH; [exact Hwg | intros _; split; [left|]; reflexivity].
  - (* AExit *)
    apply andb_prop in Hwg. destruct Hwg as [Hd Hwg]. apply Nat.eqb_eq in Hd.
    destruct (H1 Hd) as [_ ->]. subst d.
    apply exec_post_mem with (mem' := drop i mem); [intros j; apply In_drop_ne|].
    apply IH; [exact Hwg | discriminate].
  - (* AAwait *)
    apply andb_prop in Hwg. destruct Hwg as [Hd Hwg]. apply Nat.eqb_eq in Hd. subst d.
    destruct ds as [|[| |] ds']; [apply Hblock | apply IH | apply Hblock | apply finish_post]; auto.
  - (* ASet *) apply IH; assumption.
  - (* AHelp *) destruct ds as [|[| |] ds']; apply finish_post || (apply IH; assumption).
  - (* AOther *) destruct ds as [|[| |] ds']; apply finish_post || (apply IH; assumption).
Qed.

(* Wrapper.__enter__ raises the sticky error: an operation started after the cancel ends with it *)
Lemma exec_first_enter e i : forall a mem sd ds, first_enter a = true ->
  x_st (exec (Some e) i a 0 mem sd ds) = Done (RRaise (XWrap e)).
Proof. induction a as [|[] a IH]; intros mem sd ds H; try discriminate; [reflexivity | apply IH, H]. Qed.

(* task tk after the scheduling step that produced x (the record `kstep` builds) *)
Definition ran (tk : task) (x : xres) : task :=
  {| acts := x_acts x; depth := x_depth x; st := x_st x; mark := mark tk; orig := orig tk |}.

Lemma run_task_spec we mem es sd ds i tk x :
  (forall e, we = Some e -> In e es) -> tinv we mem es i tk ->
  run_task we i tk mem sd ds = Some x ->
  (forall j, j <> i -> (In j (x_mem x) <-> In j mem)) /\ tinv we (x_mem x) es i (ran tk x)
  /\ is_ready (x_st x) = false.
Proof.
  intros Hes [Hi Hmk] Hr.
  (* the step ends suspended or finished (exec_spec); what remains are the errors of a finished task *)
  enough (exec_post we i mem x /\
          forall r, x_st x = Done r -> mark tk <> MBefore ->
                    (mark tk = MAfter -> first_enter (orig tk) = true) -> wrap_res es r)
    as [[Hm Hp] Hd].
  { split; [exact Hm|]. unfold tinv, cancel_res, ran; cbn [st acts depth mark orig].
    destruct (x_st x) as [| |cp|r]; try contradiction; (split; [split; [|exact Hmk] | reflexivity]).
    - exact Hp.
    - split; [intro E | intros E Hf]; apply (Hd r eq_refl); congruence || exact (fun _ => Hf). }
  unfold run_task in Hr. destruct (st tk) as [| |[|]|r]; try discriminate.
  - (* Fresh *)
    injection Hr as <-. destruct Hi as (Hd & Ha & Hwg & Hnm). rewrite Hd. split.
    + apply exec_spec; [exact Hwg | discriminate].
    + intros r Hr Hb Hf. destruct we as [e|]; [|contradiction (Hmk Hb); reflexivity].
      rewrite Ha, exec_first_enter in Hr by (destruct (mark tk); [contradiction| contradiction | auto]).
      injection Hr as <-. exists e. split; [apply Hes|]; reflexivity.
  - (* Woken true: CancelledError at the await, replaced by the wrapper's error on the way out *)
    injection Hr as <-. destruct Hi as [(Hd & _) Hw]. rewrite Hd. split; [apply finish_post|].
    destruct we as [e|]; [|contradiction (proj1 Hw eq_refl); reflexivity].
    intros r Hr _ _. injection Hr as <-. exists e. split; [apply Hes|]; reflexivity.
  - (* Woken false: the await completed, the task goes on *)
    destruct Hi as [(Hd & Hwg & [s [a Ha]] & Hin) Hw].
    assert (Hwe : we = None)
      by (destruct we; [discriminate (proj2 Hw); discriminate | reflexivity]).
    rewrite Ha, Hd in *. injection Hr as <-. split.
    + apply exec_spec; [exact Hwg | auto].
    + intros r _ Hb. contradiction (Hmk Hb).
Qed.

Lemma kinv_init : kinv kinit.
Proof. split; [intros e H; discriminate|]. intros [|i] tk H; discriminate. Qed.

Lemma tinv_mem we mem mem' es j tk :
  (In j mem <-> In j mem') -> tinv we mem es j tk -> tinv we mem' es j tk.
Proof.
  intros Hm [H Hk]. split; [|exact Hk]. unfold suspended in *. destruct (st tk); tauto.
Qed.

(* a step that rewrites task t and leaves the membership of the others alone *)
Lemma kinv_set_task s t tk tk' mem sd :
  kinv s -> nth_error (tasks s) t = Some tk ->
  (forall j, j <> t -> (In j mem <-> In j (members s))) ->
  tinv (werr s) mem (errs s) t tk' ->
  kinv {| werr := werr s; members := mem; tasks := set_nth t tk' (tasks s); sites_done := sd;
          errs := errs s |}.
Proof.
  intros [Hes Hts] Ht Hm Hi. split; [exact Hes|]. cbn [tasks werr members errs]. intros i tk'' Hn.
  destruct (Nat.eq_dec t i) as [<-|Hne].
  - rewrite (nth_set_nth_eq _ _ _ _ Ht) in Hn. injection Hn as <-. exact Hi.
  - rewrite nth_set_nth_ne in Hn by exact Hne.
    apply tinv_mem with (mem := members s); [symmetry; apply Hm; congruence | exact (Hts i tk'' Hn)].
Qed.

Lemma wrap_res_mono es e r : wrap_res es r -> wrap_res (e :: es) r.
Proof. intros [x [Hx Hr]]. exists x. split; [right; exact Hx | exact Hr]. Qed.

(* Wrapper.cancel(e) *)
Lemma tinv_cancel we mem es e i tk :
  tinv we mem es i tk -> tinv (Some e) mem (e :: es) i (cancel_task mem i tk).
Proof.
  intros [Hi Hmk]. unfold cancel_task, tinv.
  destruct (st tk) as [| |cp|r] eqn:Hst.
  - (* Fresh *) destruct (is_member i mem); rewrite Hst; (split; [exact Hi | discriminate]).
  - (* Blocked: a member, so woken with a pending cancellation *)
    destruct Hi as [Hs _]. rewrite (proj2 (is_member_In i mem)) by apply Hs.
    split; [split; [exact Hs | split; [discriminate | reflexivity]] | discriminate].
  - (* Woken: likewise *)
    destruct Hi as [Hs _]. rewrite (proj2 (is_member_In i mem)) by apply Hs.
    split; [split; [exact Hs | split; [discriminate | reflexivity]] | discriminate].
  - (* Done *) destruct (is_member i mem); rewrite Hst; (split; [|discriminate]);
      destruct Hi as [Ha Hb]; split; intros; apply wrap_res_mono; auto.
Qed.

Lemma kinv_step s l : kinv s -> label_ok l -> kinv (kstep s l).
Proof.
  intros Hk Hok. pose proof Hk as [Hes Hts]. destruct l as [p|t ds|t|e]; cbn [kstep].
  - (* Spawn *)
    split; [exact Hes|]. cbn [tasks werr members errs]. intros i tk Hn.
    destruct (Nat.lt_ge_cases i (length (tasks s))) as [Hlt|Hge].
    + rewrite nth_error_app1 in Hn by exact Hlt. exact (Hts i tk Hn).
    + rewrite nth_error_app2 in Hn by exact Hge.
      destruct (i - length (tasks s)) as [|[|k]]; try discriminate. injection Hn as <-.
      split; cbn [st depth acts orig mark]; [repeat split; [exact Hok|] |]; destruct (werr s); congruence.
  - (* Run *)
    destruct (nth_error (tasks s) t) as [tk|] eqn:Ht; [|exact Hk].
    destruct (run_task _ _ _ _ _ _) as [x|] eqn:Hr; [|exact Hk].
    destruct (run_task_spec _ _ _ _ _ _ _ _ Hes (Hts t tk Ht) Hr) as (Hm & Hi & _).
    exact (kinv_set_task s t tk _ _ _ Hk Ht Hm Hi).
  - (* Complete *)
    destruct (nth_error (tasks s) t) as [tk|] eqn:Ht; [|exact Hk].
    destruct (st tk) eqn:Hst; try exact Hk.
    apply (kinv_set_task s t tk _ _ _ Hk Ht); [reflexivity|].
    destruct (Hts t tk Ht) as [Hi Hmk]. rewrite Hst in Hi. destruct Hi as [Hs Hwe].
    split; [|exact Hmk]. cbn [st acts depth]. split; [exact Hs|]. rewrite Hwe. split; congruence.
  - (* WCancel *)
    split; [intros e' H; injection H as <-; left; reflexivity|].
    cbn [tasks werr members errs]. intros i tk' Hn. rewrite nth_mapi_from in Hn.
    destruct (nth_error (tasks s) i) as [tk|] eqn:Ht; [|discriminate]. injection Hn as <-.
    exact (tinv_cancel _ _ _ e i tk (Hts i tk Ht)).
Qed.

Lemma kinv_run ls : forall s, kinv s -> Forall label_ok ls -> kinv (krun ls s).
Proof.
  induction ls as [|l ls IH]; intros s Hs Hok; [exact Hs|].
  inversion Hok; subst. apply IH; [apply kinv_step|]; assumption.
Qed.

(* what a wrapper that holds an error guarantees of its tasks *)
Definition settled (s : kstate) (Res : task -> result -> Prop) : Prop :=
  (* nothing is suspended, *)
  (forall i tk, nth_error (tasks s) i = Some tk -> st tk <> Blocked) /\
  (* whatever is ready finishes in its next scheduling step, *)
  (forall t tk ds, nth_error (tasks s) t = Some tk -> is_ready (st tk) = true ->
     exists tk' r, nth_error (tasks (kstep s (Run t ds))) t = Some tk' /\ st tk' = Done r) /\
  (* and at quiescence every task is Done, with a result as Res says *)
  (quiescent s = true ->
     forall i tk, nth_error (tasks s) i = Some tk -> exists r, st tk = Done r /\ Res tk r).

Lemma settled_weaken s (R R' : task -> result -> Prop) :
  (forall tk r, R tk r -> R' tk r) -> settled s R -> settled s R'.
Proof.
  intros HR (Hnb & Hfin & Hq). split; [exact Hnb|]. split; [exact Hfin|].
  intros Hqu i tk Hi. destruct (Hq Hqu i tk Hi) as [r [Hst Hr]]. exists r. split; [exact Hst | exact (HR tk r Hr)].
Qed.

Lemma kinv_cancelled s : kinv s -> werr s <> None -> settled s (cancel_res (errs s)).
Proof.
  intros [Hes Hts] Hwe.
  assert (Hnb : forall i tk, nth_error (tasks s) i = Some tk -> st tk <> Blocked).
  { intros i tk Hn Hst. destruct (Hts i tk Hn) as [Hi _]. rewrite Hst in Hi. exact (Hwe (proj2 Hi)). }
  split; [exact Hnb|]. split.
  - intros t tk ds Hn Hr. cbn [kstep]. rewrite Hn.
    destruct (run_task (werr s) t tk (members s) (sites_done s) ds) as [x|] eqn:Hx.
    + destruct (run_task_spec _ _ _ _ _ _ _ _ Hes (Hts t tk Hn) Hx) as (_ & [Hi _] & Hnr).
      cbn [tasks]. rewrite (nth_set_nth_eq _ _ _ _ Hn).
      (* after its step the task is not ready (Hnr), nor Blocked, as the wrapper holds an error *)
      assert (Hd : exists r, x_st x = Done r).
      { unfold tinv in Hi. cbn [ran st] in Hi. destruct (x_st x) as [| | |r]; try discriminate Hnr;
          [contradiction (Hwe (proj2 Hi)) | exists r; reflexivity]. }
      destruct Hd as [r Hd]. exists (ran tk x), r. split; [reflexivity | exact Hd].
    + unfold run_task in Hx. destruct (st tk) as [| |[|]|]; try discriminate.
      destruct (acts tk) as [|[]]; discriminate.
  - intros Hq i tk Hn. specialize (Hnb i tk Hn).
    pose proof (proj1 (forallb_forall _ _) Hq tk (nth_error_In _ _ Hn)) as Hr.
    destruct (Hts i tk Hn) as [Hi _]. cbv beta in Hr.
    destruct (st tk) as [| |cp|r]; try discriminate; try congruence.
    exists r. split; [reflexivity | exact Hi].
Qed.

(* only Wrapper.cancel touches `_error` and the record of the errors it was given *)
Lemma kstep_werr_errs s l :
  werr (kstep s l) = match l with WCancel e => Some e | _ => werr s end /\
  errs (kstep s l) = match l with WCancel e => e :: errs s | _ => errs s end.
Proof.
  destruct l as [p|t ds|t|e]; cbn [kstep]; try (split; reflexivity).
  - destruct (nth_error (tasks s) t); [|split; reflexivity].
    destruct (run_task _ _ _ _ _ _); split; reflexivity.
  - destruct (nth_error (tasks s) t) as [tk|]; [|split; reflexivity].
    destruct (st tk); split; reflexivity.
Qed.

Lemma werr_sticky s l : werr s <> None -> werr (kstep s l) <> None.
Proof.
  intro H. rewrite (proj1 (kstep_werr_errs s l)). destruct l; try exact H. discriminate.
Qed.

(* the errors a wrapper ever held all came from Wrapper.cancel; with one source there is one error *)
Lemma errs_only_from s l e0 : (forall e, In e (errs s) -> e = e0) ->
  (forall e, l = WCancel e -> e = e0) -> forall e, In e (errs (kstep s l)) -> e = e0.
Proof.
  intros H Hl e. rewrite (proj2 (kstep_werr_errs s l)). destruct l as [| | |e']; try apply H.
  intros [<-|E]; [apply Hl; reflexivity | apply H, E].
Qed.

(* The calls of one connection.  A call that a termination event reached (`hit`: it was registered)
   has a wrapper holding an error, and a wrapper is only ever given StreamTerminatedError or, with a
   deadline, TimeoutError. *)
Definition errs_ok (c : call) : Prop :=
  forall e, In e (errs (ck c)) -> e = ETerminated \/ (has_deadline c = true /\ e = ETimeout).

Definition cinv (c : call) : Prop :=
  kinv (ck c) /\ (hit c = true -> werr (ck c) <> None) /\ errs_ok c.

Definition sinv (s : sys) : Prop := Forall cinv s.

Lemma Forall_set_nth {A} (P : A -> Prop) l n x : Forall P l -> P x -> Forall P (set_nth n x l).
Proof.
  intros Hl Hx. revert n. induction Hl as [|y r Hy Hr IH]; intros [|n]; simpl; constructor; auto.
Qed.

Lemma Forall_upd (P : call -> Prop) s n f :
  Forall P s -> (forall c, P c -> P (f c)) -> Forall P (upd n f s).
Proof.
  intros Hs Hf. unfold upd. destruct (nth_error s n) as [c|] eqn:E; [|exact Hs].
  apply Forall_set_nth; [exact Hs|]. apply Hf. rewrite Forall_forall in Hs. apply Hs.
  eapply nth_error_In. exact E.
Qed.

(* the kernel of the call takes a step other than a cancel *)
Lemma cinv_kstep c kl : cinv c -> label_ok kl -> (forall e, kl <> WCancel e) ->
  cinv (with_k c (kstep (ck c) kl)).
Proof.
  intros (Hk & Hh & He) Hok Hnc. unfold cinv, errs_ok. cbn [ck with_k hit has_deadline].
  destruct (kstep_werr_errs (ck c) kl) as [_ ->].
  split; [apply kinv_step; assumption|]. split; [intro H; apply werr_sticky, Hh, H|].
  destruct kl; try exact He. contradiction (Hnc e). reflexivity.
Qed.

(* the wrapper of the call is cancelled with an error the call may see: `terminate`, the deadline timer *)
Lemma cinv_cancel c c' e :
  cinv c -> ck c' = kstep (ck c) (WCancel e) -> has_deadline c' = has_deadline c ->
  e = ETerminated \/ (has_deadline c = true /\ e = ETimeout) -> cinv c'.
Proof.
  intros (Hk & _ & He) Hck Hdl Hc. unfold cinv, errs_ok. rewrite Hck, Hdl.
  split; [apply kinv_step; [exact Hk | exact I]|]. split; [discriminate|].
  intros x [<-|H]; [exact Hc | exact (He x H)].
Qed.

Section Sinv.
Variable tbl : optable.
Hypothesis Hg : forallb well_guarded (call_paths tbl) = true.

Lemma sinv_step s l : sinv s -> slabel_ok tbl l -> sinv (sstep s l).
Proof.
  intros Hs Hok. destruct l as [dl|c kl|c rm|e|c|c]; cbn [sstep].
  - apply Forall_app. split; [exact Hs|]. constructor; [|constructor].
    split; [apply kinv_init|]. split; [discriminate|]. intros e [].
  - (* a step of the call's kernel: a spawned path is one of `call_paths`, so well guarded *)
    assert (Hl : label_ok kl).
    { destruct kl; try exact I. exact (proj1 (forallb_forall _ _) Hg _ Hok). }
    destruct kl as [p|t ds|t|e]; [| | |exact Hs]; (apply Forall_upd; [exact Hs|]); intros cl Hc;
      (apply cinv_kstep; [exact Hc | exact Hl | discriminate]).
  - apply Forall_upd; [exact Hs|]. intros cl Hc. destruct (registered cl); [|exact Hc].
    exact (cinv_cancel cl (terminate cl) ETerminated Hc eq_refl eq_refl (or_introl eq_refl)).
  - apply Forall_map. refine (Forall_impl _ _ Hs). intros cl Hc. unfold conn_event.
    destruct (registered cl).
    + exact (cinv_cancel cl (terminate cl) ETerminated Hc eq_refl eq_refl (or_introl eq_refl)).
    + destruct (opening cl); exact Hc.
  - apply Forall_upd; [exact Hs|]. intros cl Hc. exact Hc.
  - apply Forall_upd; [exact Hs|]. intros cl Hc. destruct (has_deadline cl) eqn:Hd; [|exact Hc].
    exact (cinv_cancel cl (with_k cl _) ETimeout Hc eq_refl eq_refl (or_intror (conj Hd eq_refl))).
Qed.

Lemma sinv_run ls : forall s, sinv s -> Forall (slabel_ok tbl) ls -> sinv (srun ls s).
Proof.
  induction ls as [|l ls IH]; intros s Hs Hok; [exact Hs|].
  inversion Hok; subst. apply IH; [apply sinv_step|]; assumption.
Qed.
End Sinv.

(* what the invariant gives for a call that a termination event found registered *)
Theorem cinv_hit_complete cl : cinv cl -> hit cl = true ->
  werr (ck cl) <> None /\
  settled (ck cl) (fun tk r =>
    mark tk = MAtCancel \/ (mark tk = MAfter /\ first_enter (orig tk) = true) ->
    r = RRaise (XWrap ETerminated) \/ (has_deadline cl = true /\ r = RRaise (XWrap ETimeout))).
Proof.
  intros (Hk & Hhit & He) Hh. specialize (Hhit Hh). split; [exact Hhit|].
  refine (settled_weaken _ _ _ _ (kinv_cancelled _ Hk Hhit)). intros tk r [Ha Hb] Hm.
  assert (Hw : wrap_res (errs (ck cl)) r) by (destruct Hm as [Hm|[Hm Hf]]; auto).
  destruct Hw as [e [Hin ->]]. destruct (He e Hin) as [->|[Hd ->]]; [left | right]; auto.
Qed.

Lemma grpc_status_raises_none g : grpc_status_raises g = None <-> g = GCode 0.
Proof.
  destruct g as [| |k]; cbn; try (split; discriminate).
  destruct (Z.eqb_spec k 0) as [->|Hk]; split; try reflexivity; try discriminate. congruence.
Qed.

Theorem maybe_raise_none_iff h t :
  maybe_raise h t = None <->
  (match h with Some hh => h_ok hh = true | None => True end) /\
  (match t with
   | Some g => g = GCode 0
   | None => match h with Some hh => h_gs hh = GMissing \/ h_gs hh = GCode 0 | None => True end
   end).
Proof.
  unfold maybe_raise.
  destruct h as [[[|] mp gs]|], t as [g|]; cbn [h_ok h_mapped h_gs]; try destruct gs;
    rewrite ?grpc_status_raises_none; intuition (discriminate || congruence).
Qed.

(* which status the GRPCError carries *)
Theorem maybe_raise_code h t k :
  maybe_raise h t = Some k ->
  (exists hh, h = Some hh /\ h_ok hh = false /\ k = h_mapped hh)
  \/ (exists g, (t = Some g \/ (t = None /\ exists hh, h = Some hh /\ h_gs hh = g /\ g <> GMissing))
                /\ grpc_status_raises g = Some k).
Proof.
  unfold maybe_raise. destruct h as [[ok mp gs]|]; cbn [h_ok h_mapped h_gs].
  - destruct ok.
    + destruct t as [g|].
      * intro H. right. exists g. split; [left; reflexivity | exact H].
      * destruct gs as [| |k'] eqn:Eg; [discriminate| |]; intro H; right;
          eexists; (split; [right; split; [reflexivity|]; eexists; split; [reflexivity|];
                            split; [reflexivity | discriminate] | exact H]).
    + intro H. injection H as <-. left. eexists. split; [reflexivity|]. split; reflexivity.
  - destruct t as [g|]; [|discriminate]. intro H. right. exists g. split; [left; reflexivity | exact H].
Qed.

(* what __aexit__ raises: StreamTerminatedError is upgraded to the explaining GRPCError exactly when a
   failing status had arrived; every other exception (and a normal exit) passes through unchanged *)
Theorem aexit_upgrade h t :
  (forall k, aexit_outcome OTerminated h t = OGrpc k <-> maybe_raise h t = Some k) /\
  (aexit_outcome OTerminated h t = OTerminated <-> maybe_raise h t = None) /\
  (forall x, x <> OTerminated -> aexit_outcome x h t = x).
Proof.
  unfold aexit_outcome. split; [|split].
  - intro k. destruct (maybe_raise h t); split; intro H; try discriminate; congruence.
  - destruct (maybe_raise h t); split; intro H; try discriminate; reflexivity.
  - intros x Hx. destruct x; try reflexivity. congruence.
Qed.

Corollary aexit_no_status : aexit_outcome OTerminated None None = OTerminated.
Proof. reflexivity. Qed.

Lemma seq_frag_fall hs rs hp rp (re : ending) :
  In (hp, EFall) hs -> In (rp, re) rs -> In (hp ++ rp, re) (seq_frag hs rs).
Proof.
  intros Hh Hr. apply in_flat_map. exists (hp, EFall). split; [exact Hh|].
  apply (in_map (fun r : path * ending => (hp ++ fst r, snd r)) rs (rp, re) Hr).
Qed.

Lemma seq_frag_stop hs rs (hp : path) he :
  In (hp, he) hs -> he <> EFall -> In (hp, he) (seq_frag hs rs).
Proof.
  intros Hh He. apply in_flat_map. exists (hp, he). split; [exact Hh|].
  destruct he; [congruence | left; reflexivity..].
Qed.

(* the path the interpreter selects (`trace`: every condition evaluated) is one of the syntactic paths
   (`frag`: every `if` both ways) *)
Lemma trace_in_frag f : forall tbl cx d p fl le r l,
  trace f tbl cx d p fl le = Some r -> frag f tbl d p = Some l -> In (t_path r, t_end r) l.
Proof.
  induction f as [|f IH]; intros tbl cx d p fl le r l Ht Hf; [discriminate|].
  destruct p as [|i rest]; cbn [trace frag] in Ht, Hf.
  - injection Ht as <-. injection Hf as <-. left. reflexivity.
  - match type of Ht with match ?X with _ => _ end = _ => destruct X as [h|] eqn:Eh; [|discriminate] end.
    match type of Hf with match ?X with _ => _ end = _ => destruct X as [hs|] eqn:Ehs; [|discriminate] end.
    destruct (frag f tbl d rest) as [rs|] eqn:Ers; [|discriminate]. injection Hf as <-.
    assert (Hh : In (t_path h, t_end h) hs).
    { destruct i; try destruct x;
        try (injection Eh as <-; injection Ehs as <-; left; reflexivity).
      (* left: SGuarded and SAwaitSelf, both a sub-program with its ending adjusted, then SIf *)
      2: destruct (lookup o tbl) as [body|]; [|discriminate].
      1, 2: destruct (trace f tbl _ _ body fl _) as [rb|] eqn:Eb; [|discriminate];
        destruct (frag f tbl _ body) as [lb|] eqn:Elb; [|discriminate];
        injection Eh as <-; injection Ehs as <-;
        apply in_map_iff; exists (t_path rb, t_end rb); (split; [|eapply IH; eassumption]);
        cbn [fst snd t_path t_end]; destruct (t_end rb); reflexivity.
      destruct (frag f tbl d t) as [a|] eqn:Ea; [|discriminate].
        destruct (frag f tbl d e) as [b|] eqn:Eb; [|discriminate]. injection Ehs as <-.
        apply in_or_app. destruct (evalc cx fl le c); [left|right]; eapply IH; eassumption. }
    clear Eh Ehs. destruct (t_end h) eqn:Ee.
    + destruct (trace f tbl cx d rest (t_fl h) (t_le h)) as [r'|] eqn:Er; [|discriminate].
      injection Ht as <-. cbn [t_path t_end]. apply seq_frag_fall; [exact Hh | eapply IH; eassumption].
    + injection Ht as <-. rewrite Ee. apply seq_frag_stop; [exact Hh | discriminate].
    + injection Ht as <-. rewrite Ee. apply seq_frag_stop; [exact Hh | discriminate].
Qed.

Lemma path_beq_eq a : forall b, path_beq a b = true <-> a = b.
Proof.
  induction a as [|x r IH]; intros [|y q]; simpl; split; intro H; try discriminate; try reflexivity.
  - apply andb_prop in H. destruct H as [H1 H2]. apply internal_action_dec_bl in H1.
    apply IH in H2. congruence.
  - injection H as <- <-. rewrite (internal_action_dec_lb x x eq_refl). apply IH. reflexivity.
Qed.

Lemma in_paths_In tbl p : in_paths tbl p = true <-> In p (call_paths tbl).
Proof.
  unfold in_paths. rewrite existsb_exists. split.
  - intros [q [Hq He]]. apply path_beq_eq in He. subst. exact Hq.
  - intro H. exists p. split; [exact H | apply path_beq_eq; reflexivity].
Qed.

Lemma collect_In l : forall r x, collect l = Some r -> In x l -> exists a, x = Some a /\ incl a r.
Proof.
  induction l as [|[a|] l IH]; intros r x Hc Hx; simpl in *; try contradiction; try discriminate.
  destruct (collect l) as [b|]; [|discriminate]. injection Hc as <-. destruct Hx as [<-|Hx].
  - exists a. split; [reflexivity | apply incl_appl, incl_refl].
  - destruct (IH b x eq_refl Hx) as [a' [-> Ha']]. exists a'. split; [reflexivity | apply incl_appr, Ha'].
Qed.

(* the programs whose paths `call_paths` collects *)
Definition call_progs (tbl : optable) : list program := map snd tbl ++ [maybe_finish_prog].

Lemma prog_paths_in_call_paths tbl prog :
  call_paths_opt tbl <> None -> In prog (call_progs tbl) ->
  exists ps, prog_paths tbl prog = Some ps /\ incl ps (call_paths tbl).
Proof.
  unfold call_paths, call_paths_opt. intros Hc Hp.
  destruct (collect _) as [cps|] eqn:E; [|congruence].
  apply (collect_In _ _ _ E). apply (in_map (prog_paths tbl)) in Hp.
  unfold call_progs in Hp. rewrite map_app, map_map in Hp. exact Hp.
Qed.

(* TRACE_FUEL and PATH_FUEL are the same number, which trace_in_frag needs.  A lemma of its own: with
   `prog_paths` unfolded in a hypothesis of traced_in_call_paths instead, Qed does not return. *)
Lemma traced_in_prog_paths tbl prog cx fl le r ps :
  trace TRACE_FUEL tbl cx 0 prog fl le = Some r -> prog_paths tbl prog = Some ps -> In (t_path r) ps.
Proof.
  unfold prog_paths. intros Ht Hps.
  destruct (frag PATH_FUEL tbl 0 prog) as [l|] eqn:Ef; [|discriminate]. injection Hps as <-.
  exact (in_map fst l (t_path r, t_end r) (trace_in_frag TRACE_FUEL tbl cx 0 prog fl le r l Ht Ef)).
Qed.

Lemma traced_in_call_paths tbl prog cx fl le r :
  call_paths_opt tbl <> None -> In prog (call_progs tbl) ->
  trace TRACE_FUEL tbl cx 0 prog fl le = Some r -> In (t_path r) (call_paths tbl).
Proof.
  intros Hc Hp Ht. destruct (prog_paths_in_call_paths tbl prog Hc Hp) as [ps [Hps Hin]].
  apply Hin. exact (traced_in_prog_paths _ _ _ _ _ _ _ Ht Hps).
Qed.

Lemma lookup_In o tbl p : lookup o tbl = Some p -> In p (call_progs tbl).
Proof.
  intro H. apply in_or_app. left. induction tbl as [|[o' q] r IH]; [discriminate|].
  simpl in H |- *. destruct o, o'; try (right; exact (IH H)); left; congruence.
Qed.

(* every `in_paths` flag that `predict` threads along is true *)
Definition inpaths_ok (x : option (sys * flags * bool)) : Prop :=
  match x with Some (_, _, ok) => ok = true | None => True end.

Section InPaths.
Variable tbl : optable.
Hypothesis Hc : call_paths_opt tbl <> None.

Lemma start_op_ok cx ds s fl prog : In prog (call_progs tbl) -> inpaths_ok (start_op tbl cx ds s fl prog).
Proof.
  intro Hp. unfold start_op. destruct (trace _ _ _ _ _ _ _) as [r|] eqn:Et; [|exact I].
  apply in_paths_In. exact (traced_in_call_paths _ _ _ _ _ _ Hc Hp Et).
Qed.

Lemma start_seq_ok c closing ps : Forall (fun pe => In (fst pe) (call_progs tbl)) ps ->
  forall s fl, inpaths_ok (start_seq tbl c closing s fl true ps).
Proof.
  induction 1 as [|[prog e] r Hp Hr IH]; intros s fl; [reflexivity|]. cbn [start_seq].
  pose proof (start_op_ok (cell_cx c e closing) (decisions c) s fl prog Hp) as Ho.
  destruct (start_op _ _ _ _ _ _) as [[[s' fl'] ok']|]; [|exact I]. simpl in Ho. subst ok'.
  destruct (task_st s' (last_task s')) as [| | |[|]]; try reflexivity.
  destruct r; [reflexivity | apply IH].
Qed.

Lemma op_sequence_progs o progs : op_sequence tbl o = Some progs ->
  Forall (fun pe : program * bool => In (fst pe) (call_progs tbl)) progs.
Proof.
  assert (Hmf : In maybe_finish_prog (call_progs tbl)) by (apply in_or_app; right; left; reflexivity).
  (* no lookup for the context exit, two for the stub-style call *)
  unfold op_sequence, op_program.
  destruct o; try (destruct (lookup _ tbl) as [p|] eqn:E; [|discriminate]; apply lookup_In in E);
    try (destruct (lookup _ tbl) as [q|] eqn:E'; [|discriminate]; apply lookup_In in E');
    intro H; injection H as <-; repeat constructor; assumption.
Qed.

Lemma predict_inpaths c : p_inpaths (predict tbl c) = true.
Proof.
  unfold predict. cbv zeta.
  match goal with |- p_inpaths (match ?p2 with _ => _ end) = _ => set (pre2 := p2) end.
  assert (H2 : inpaths_ok pre2).
  { subst pre2. match goal with |- inpaths_ok (match ?p1 with _ => _ end) => set (pre1 := p1) end.
    assert (H1 : inpaths_ok pre1).
    { subst pre1. destruct (opens_in_op c); [reflexivity|].
      destruct (lookup OpSendRequest tbl) eqn:E; [|exact I].
      apply start_op_ok, (lookup_In _ _ _ E). }
    destruct pre1 as [[[s1 fl1] ok1]|]; [|exact I]. simpl in H1. subst ok1.
    destruct (need_headers c); [|reflexivity].
    destruct (lookup OpRecvInitialMetadata tbl) eqn:E; [|exact I].
    pose proof (start_op_ok (cell_cx c false false) all_go s1 fl1 _ (lookup_In _ _ _ E)) as H.
    destruct (start_op _ _ _ _ _ _) as [[[s2 fl2] ok2]|]; [exact H | exact I]. }
  clearbody pre2.
  destruct pre2 as [[[s1 fl1] ok1]|]; [|reflexivity]. simpl in H2. subst ok1.
  destruct (op_sequence tbl (c_op c)) as [progs|] eqn:Eo; [|reflexivity].
  apply op_sequence_progs in Eo.
  destruct (_ && _); [reflexivity|]. destruct (c_during c).
  - (* the event finds the operation started *)
    pose proof (start_seq_ok c false progs Eo s1 fl1) as H3.
    destruct (start_seq _ _ _ _ _ _ _) as [[[s2 fl2] ok2]|]; [|reflexivity]. simpl in H3. subst ok2.
    destruct (task_st _ _); try reflexivity. destruct (fire _ _ _); reflexivity.
  - (* the operation is started after the event *)
    destruct (_ && _); [reflexivity|]. destruct (fire c fl1 s1) as [s2|su]; [|reflexivity].
    pose proof (start_seq_ok c (conn_level (c_event c)) progs Eo (drain s2) fl1) as H3.
    destruct (start_seq _ _ _ _ _ _ _) as [[[s3 fl3] ok3]|]; [|reflexivity]. exact H3.
Qed.
End InPaths.

Definition with_event (e : cevent) (c : cell) : cell :=
  {| c_op := c_op c; c_reason := c_reason c; c_event := e; c_during := c_during c;
     c_deadline := c_deadline c; c_status := c_status c; c_variant := c_variant c |}.

(* The interpreter reads the termination event only through `conn_level`: process_stream_reset does
   not look at `remote`, EventsProcessor.close not at what closed the connection. *)
Lemma decisions_event e c p : decisions (with_event e c) p = decisions c p.
Proof.
  induction p as [|a p IH]; [reflexivity|]. destruct a; cbn [decisions]; rewrite ?IH; reflexivity.
Qed.

Lemma start_seq_event tbl e c cl : forall ps s fl ok,
  start_seq tbl (with_event e c) cl s fl ok ps = start_seq tbl c cl s fl ok ps.
Proof.
  induction ps as [|[prog x] ps IH]; intros s fl ok; [reflexivity|]. cbn [start_seq].
  replace (start_op tbl (cell_cx (with_event e c) x cl) (decisions (with_event e c)) s fl prog)
    with (start_op tbl (cell_cx c x cl) (decisions c) s fl prog).
  - destruct (start_op _ _ _ _ _ _) as [[[s' fl'] ok']|]; [|reflexivity].
    destruct (task_st s' (last_task s')) as [| | |[|]]; try reflexivity.
    destruct ps; [reflexivity | apply IH].
  - unfold start_op. change (cell_cx (with_event e c) x cl) with (cell_cx c x cl).
    destruct (trace _ _ _ _ _ _ _); [|reflexivity]. rewrite decisions_event. reflexivity.
Qed.

Lemma fire_event e c fl s :
  conn_level e = conn_level (c_event c) -> fire (with_event e c) fl s = fire c fl s.
Proof. destruct c as [o r e' d dl st v]. destruct e, e'; try discriminate; reflexivity. Qed.

Lemma predict_event tbl e c :
  conn_level e = conn_level (c_event c) -> predict tbl (with_event e c) = predict tbl c.
Proof.
  intro Hl. set (c' := with_event e c). unfold predict.
  (* all but start_seq, fire and conn_level read the other fields of the cell, so they convert *)
  change (c_deadline c') with (c_deadline c). change (cell_cx c') with (cell_cx c).
  change (opens_in_op c') with (opens_in_op c). change (c_op c') with (c_op c).
  change (need_headers c') with (need_headers c). change (c_status c') with (c_status c).
  change (c_during c') with (c_during c). change (c_event c') with e. rewrite Hl.
  cbv zeta.
  match goal with |- match ?p2 with _ => _ end = _ => destruct p2 as [[[s1 fl1] ok1]|] end;
    [|reflexivity].
  destruct (op_sequence tbl (c_op c)) as [progs|]; [|reflexivity].
  destruct (_ && _); [reflexivity|]. destruct (c_during c).
  - (* the event finds the operation started *)
    unfold c'. rewrite start_seq_event.
    destruct (start_seq _ _ _ _ _ _ _) as [[[s2 fl2] ok2]|]; [|reflexivity].
    destruct (task_st _ _); try reflexivity. rewrite (fire_event _ _ _ _ Hl).
    destruct (fire _ _ _); reflexivity.
  - (* the operation is started after the event *)
    destruct (_ && _); [reflexivity|]. unfold c'. rewrite (fire_event _ _ _ _ Hl).
    destruct (fire c fl1 s1) as [s2|su]; [|reflexivity]. rewrite start_seq_event.
    destruct (start_seq _ _ _ _ _ _ _) as [[[s3 fl3] ok3]|]; reflexivity.
Qed.

(* the GENERATED client operations (re-sliced from /repo/grpclib/client.py on every run) *)
From GV Require Import Gen.StreamOps.

Lemma client_paths_computed : call_paths_opt client_ops <> None.
Proof. vm_compute. discriminate. Qed.

Lemma client_paths_guarded_b : forallb well_guarded (call_paths client_ops) = true.
Proof. vm_compute. reflexivity. Qed.

Lemma client_prog_path_guarded prog ps p :
  In prog (call_progs client_ops) -> prog_paths client_ops prog = Some ps -> In p ps ->
  In p (call_paths client_ops) /\ well_guarded p = true.
Proof.
  intros Hin Hps Hp.
  destruct (prog_paths_in_call_paths _ _ client_paths_computed Hin) as [ps' [E Hi]].
  rewrite Hps in E. injection E as <-.
  split; [|apply (proj1 (forallb_forall _ _) client_paths_guarded_b)]; apply Hi, Hp.
Qed.

(* FULL-STRENGTH statement (false of the faithful model -- defect D6):
     forall ls, Forall (slabel_ok client_ops) ls -> let s := srun ls [] in
     forall c cl, nth_error s c = Some cl -> (hit cl = true \/ missed cl = true) ->
       quiescent (ck cl) = true -> forall i tk, nth_error (tasks (ck cl)) i = Some tk -> exists r, st tk = Done r
   i.e. also a call that a connection-level event found INSIDE protocol.Stream.send_request.
   Witness: send_request suspended inside protocol.Stream.send_request, then connection_lost. *)
Definition d6_cell : cell :=
  {| c_op := KSr; c_reason := RPaused; c_event := VLost; c_during := true; c_deadline := false;
     c_status := StNone; c_variant := VaBase |}.

Definition d6_path : path :=
  match op_program client_ops KSr with
  | Some prog =>
      match trace TRACE_FUEL client_ops (cell_cx d6_cell false false) 0 prog no_flags false with
      | Some r => t_path r
      | None => []
      end
  | None => []
  end.

Definition d6_labels : list slabel :=
  [LNewCall false; LK 0 (Spawn d6_path); LK 0 (Run 0 (decisions d6_cell d6_path)); LConn CLost].

Theorem unregistered_waiter_refuted :
  Forall (slabel_ok client_ops) d6_labels /\
  exists cl tk, nth_error (srun d6_labels []) 0 = Some cl
    /\ missed cl = true /\ hit cl = false /\ werr (ck cl) = None
    /\ quiescent (ck cl) = true
    /\ nth_error (tasks (ck cl)) 0 = Some tk /\ st tk = Blocked /\ at_open tk = true
    /\ is_member 0 (members (ck cl)) = true.
Proof.
  split.
  - unfold d6_labels. constructor; [exact I|]. constructor.
    + change (In d6_path (call_paths client_ops)). apply in_paths_In. vm_compute. reflexivity.
    + constructor; [exact I|]. constructor; [exact I|]. constructor.
  - remember (srun d6_labels []) as s eqn:Es. vm_compute in Es. subst s.
    eexists. eexists. split; [reflexivity|]. repeat split; reflexivity.
Qed.

Definition all_ops := [KSr; KSm; KEn; KRi; KRm; KRt; KCa; KAx; KCall false; KCall true].
Definition all_reasons := [RPaused; RWindow; RSlot; RSilent].
Definition all_events := [VRst; VGoaway; VGarbage; VLost; VClose; VSerr].
Definition all_statuses := [StNone; StH503; StTonly 7; StTrailers 5; StTrailers 0; StH200; StH200Msg].
Definition all_variants := [VaBase; VaImplicit; VaAfterHeaders].
Definition bools := [false; true].

Definition all_cells : list cell :=
  flat_map (fun o => flat_map (fun r => flat_map (fun e => flat_map (fun d => flat_map (fun dl =>
  flat_map (fun stt => map (fun v =>
    {| c_op := o; c_reason := r; c_event := e; c_during := d; c_deadline := dl; c_status := stt;
       c_variant := v |}) all_variants) all_statuses) bools) bools) all_events) all_reasons) all_ops.

Definition is_pending (o : outcome) : bool := match o with OPending => true | _ => false end.
Definition is_setup_ok (su : setup) : bool := match su with SOk => true | _ => false end.
Definition is_setup_error (su : setup) : bool := match su with SError => true | _ => false end.

(* the class of defect D6: the event was connection-level and found the call suspended inside
   protocol.Stream.send_request, not registered *)
Definition d6_class (c : cell) (p : prediction) : bool :=
  negb (p_registered p) && c_during c && conn_level (c_event c)
  && match p_blocked p with Some s => is_open_site s | None => false end.

(* what the property asks of the call: the GRPCError explaining the failure when a failing status had
   arrived, a stream-termination error otherwise *)
Definition expected_ctx (c : cell) : outcome :=
  match c_status c with
  | StH503 => OGrpc 14
  | StTonly k | StTrailers k => if Z.eqb k 0 then OTerminated else OGrpc k
  | StNone | StH200 | StH200Msg => OTerminated
  end.

(* a cell that asks for recv_initial_metadata after it has been received: the call is refused *)
Definition misuse_class (c : cell) : bool :=
  match c_op c, c_variant c with KRi, VaAfterHeaders => true | _, _ => false end.

Definition outcome_eqb (a b : outcome) : bool :=
  match a, b with
  | OOk, OOk | OTerminated, OTerminated | OTimeout, OTimeout | OProtocol, OProtocol
  | OCancelled, OCancelled | OOther, OOther | OPending, OPending => true
  | OGrpc x, OGrpc y => Z.eqb x y
  | _, _ => false
  end.

Definition is_term_error (o : outcome) : bool :=
  match o with OTerminated | OGrpc _ => true | _ => false end.

Lemma outcome_eqb_eq a b : outcome_eqb a b = true -> a = b.
Proof.
  destruct a, b; simpl; intro H; try discriminate; try reflexivity.
  apply Z.eqb_eq in H. congruence.
Qed.

Lemma in_all_cells c : In c all_cells <->
  In (c_op c) all_ops /\ In (c_reason c) all_reasons /\ In (c_event c) all_events /\ In (c_during c) bools
  /\ In (c_deadline c) bools /\ In (c_status c) all_statuses /\ In (c_variant c) all_variants.
Proof.
  unfold all_cells. split.
  - intro H. repeat (apply in_flat_map in H; destruct H as [? [? H]]).
    apply in_map_iff in H. destruct H as [v [<- Hv]].
    cbn [c_op c_reason c_event c_during c_deadline c_status c_variant]. tauto.
  - destruct c as [o r e d dl st v]. intros (Ho & Hr & He & Hd & Hdl & Hst & Hv).
    apply in_flat_map. exists o. split; [exact Ho|]. apply in_flat_map. exists r. split; [exact Hr|].
    apply in_flat_map. exists e. split; [exact He|]. apply in_flat_map. exists d. split; [exact Hd|].
    apply in_flat_map. exists dl. split; [exact Hdl|]. apply in_flat_map. exists st. split; [exact Hst|].
    apply in_map_iff. exists v. split; [reflexivity | exact Hv].
Qed.

Definition cell_check (c : cell) (p : prediction) : bool :=
  negb (is_setup_error (p_setup p))
  && (negb (is_setup_ok (p_setup p))
      || (eqb (is_pending (p_op p)) (d6_class c p)
          && eqb (is_pending (p_op p)) (p_missed p)
          && (is_pending (p_op p) || negb (is_pending (p_ctx p)))
          && eqb (is_pending (p_late p)) (is_pending (p_op p) && negb (c_deadline c))
          && (is_pending (p_op p)
              || (if misuse_class c then outcome_eqb (p_op p) OProtocol
                  else is_term_error (p_op p) && outcome_eqb (p_ctx p) (expected_ctx c))))).

Lemma cell_check_event e c p :
  conn_level e = conn_level (c_event c) -> cell_check (with_event e c) p = cell_check c p.
Proof. intro Hl. unfold cell_check, d6_class. cbn [with_event c_event]. rewrite Hl. reflexivity. Qed.

(* so one stream-level and one connection-level event stand for all six *)
Definition ev_repr (e : cevent) : cevent := if conn_level e then VLost else VRst.

Lemma conn_level_repr e : conn_level (ev_repr e) = conn_level e.
Proof. destruct e; reflexivity. Qed.

Definition repr_cells : list cell :=
  filter (fun c => match c_event c with VRst | VLost => true | _ => false end) all_cells.

Lemma matrix_check_b : forallb (fun c => cell_check c (predict client_ops c)) repr_cells = true.
Proof.
  (* lazy, not vm_compute: call by need never computes the `in_paths` flags, each of which costs a
     `call_paths client_ops` (predict_inpaths covers them) *)
  lazy. reflexivity.
Qed.

Lemma in_repr_cells c : In c all_cells -> In (with_event (ev_repr (c_event c)) c) repr_cells.
Proof.
  intro H. apply filter_In. split.
  - apply in_all_cells. apply in_all_cells in H. destruct H as (Ho & Hr & _ & H).
    split; [exact Ho|]. split; [exact Hr|]. split; [|exact H].
    cbn [c_event with_event]. destruct (c_event c); simpl; tauto.
  - cbn [c_event with_event]. destruct (c_event c); reflexivity.
Qed.

(* The matrix is operation(10: the 7 operations, the context exit, the stub-style call with a unary /
   streaming request) x reason(4) x event(6) x order(2) x deadline(2) x status-already-arrived(7) x
   variant(3) = 20160 cells.  Computed are the cells of the two representative events; the other four
   events follow by predict_event, the `in_paths` flags by predict_inpaths. *)
Theorem matrix_pending_is_exactly_d6 :
  forall c, In c all_cells ->
    let p := predict client_ops c in
    p_inpaths p = true /\ p_setup p <> SError /\
    (p_setup p = SOk ->
       is_pending (p_op p) = d6_class c p /\
       is_pending (p_op p) = p_missed p /\
       (is_pending (p_ctx p) = true -> is_pending (p_op p) = true) /\
       is_pending (p_late p) = (is_pending (p_op p) && negb (c_deadline c)) /\
       (is_pending (p_op p) = false ->
          if misuse_class c then p_op p = OProtocol
          else is_term_error (p_op p) = true /\ p_ctx p = expected_ctx c)).
Proof.
  intros c Hin p. split; [exact (predict_inpaths _ client_paths_computed c)|].
  pose proof (proj1 (forallb_forall _ _) matrix_check_b _ (in_repr_cells c Hin)) as H.
  cbv beta in H. rewrite (predict_event _ _ _ (conn_level_repr _)) in H. fold p in H.
  rewrite (cell_check_event _ _ _ (conn_level_repr _)) in H.
  unfold cell_check in H. apply andb_prop in H. destruct H as [Hne Hok]. split.
  - intro E. rewrite E in Hne. discriminate.
  - intro E. rewrite E in Hok. cbn [is_setup_ok negb orb] in Hok.
    rewrite !andb_true_iff, !eqb_true_iff in Hok. destruct Hok as [[[[Hclass Hmiss] Hctx] Hlate] Hend].
    split; [exact Hclass|]. split; [exact Hmiss|]. split; [|split; [exact Hlate|]]; intro Hp.
    + destruct (is_pending (p_op p)); [reflexivity|]. rewrite Hp in Hctx. discriminate.
    + rewrite Hp in Hend. destruct (misuse_class c); [exact (outcome_eqb_eq _ _ Hend)|].
      apply andb_prop in Hend. split; [apply Hend | apply outcome_eqb_eq, Hend].
Qed.

(* The cell of the former finding D35 (repaired in /repo): the server had answered NOT_FOUND (trailers),
   the connection is lost, the body ends normally.  The implicit finish is refused by the wrapper and
   __aexit__ raises the explaining GRPCError(5): C04_context_exit_after_conn_event_raises. *)
Definition quiet_exit_cell : cell :=
  {| c_op := KAx; c_reason := RPaused; c_event := VLost; c_during := false; c_deadline := false;
     c_status := StTrailers 5; c_variant := VaBase |}.
