(* Proofs/C16Proofs.v -- lemmas about Model/Channel.v (property C16).
   The invariants read seven components of a state (`view`).  `step_vstep` shows that every `step` is, on these
   components, a move of the transition system `vstep`: this is the one case analysis of all of the model's code.
   That `vstep` preserves the invariants (`vstep_lock`, `vstep_live`, `vstep_fail`) is proved on variables.
   The statements about one step of one caller, at the end, each follow a single branch of `run_caller`. *)
From Coq Require Import List Bool Arith Lia.
From GV Require Import Model.Channel.
Import ListNotations.

Lemma upd_length {A} n (f : A -> A) l : length (upd n f l) = length l.
Proof. revert n; induction l; destruct n; simpl; auto. Qed.

Lemma nth_upd {A} n m (f : A -> A) l d :
  nth m (upd n f l) d = if Nat.eqb n m && Nat.ltb m (length l) then f (nth m l d) else nth m l d.
Proof.
  revert n m; induction l; intros n m.
  - simpl. destruct n, m; simpl; rewrite ?andb_false_r; auto.
  - destruct n, m; simpl; auto. apply IHl.
Qed.

Lemma nth_upd_same {A} n (f : A -> A) l d : n < length l -> nth n (upd n f l) d = f (nth n l d).
Proof. intros H. apply Nat.ltb_lt in H. rewrite nth_upd, Nat.eqb_refl, H. auto. Qed.

Lemma nth_upd_other {A} n m (f : A -> A) l d : n <> m -> nth m (upd n f l) d = nth m l d.
Proof. intros H. apply Nat.eqb_neq in H. rewrite nth_upd, H. auto. Qed.

Lemma nth_lt {A} n (l : list A) d : nth n l d <> d -> n < length l.
Proof. intros H. destruct (le_lt_dec (length l) n); auto. destruct H. apply nth_overflow; auto. Qed.

Lemma nth_app_new {A} (l : list A) x d : nth (length l) (l ++ [x]) d = x.
Proof. rewrite app_nth2, Nat.sub_diag; auto. Qed.

Lemma nth_app_old {A} (l : list A) x d n : n < length l -> nth n (l ++ [x]) d = nth n l d.
Proof. intros. apply app_nth1; auto. Qed.

Lemma upd_app_new {A} (l : list A) f x : upd (length l) f (l ++ [x]) = l ++ [f x].
Proof. induction l; simpl; congruence. Qed.

Lemma nth_app_cases {A} (l : list A) x d n :
  nth n (l ++ [x]) d = nth n l d \/ n = length l /\ nth n (l ++ [x]) d = x.
Proof.
  destruct (lt_eq_lt_dec n (length l)) as [[H|H]|H].
  - left. apply nth_app_old; auto.
  - right. subst. split; auto. apply nth_app_new.
  - left. rewrite !nth_overflow; auto; rewrite ?app_length; simpl; lia.
Qed.

Lemma upd_upd {A} n (f g : A -> A) l : upd n f (upd n g l) = upd n (fun x => f (g x)) l.
Proof. revert n; induction l; destruct n; simpl; congruence. Qed.

Lemma upd_fix {A} n (f : A -> A) l d : f (nth n l d) = nth n l d -> upd n f l = l.
Proof. revert n; induction l; destruct n; simpl; intros; f_equal; auto. Qed.

Lemma map_upd {A B} (g : A -> B) n f l : (forall x, g (f x) = g x) -> map g (upd n f l) = map g l.
Proof. intros H. revert n; induction l; destruct n; simpl; auto; rewrite ?H, ?IHl; auto. Qed.

Lemma map_upd_to {A B} (g : A -> B) n f l v : (forall x, g (f x) = v) ->
  map g (upd n f l) = upd n (fun _ => v) (map g l).
Proof. intros H. revert n; induction l; destruct n; simpl; auto; rewrite ?H, ?IHl; auto. Qed.

Lemma map_upd_alike {A B} (g : A -> B) n v l d : g v = g (nth n l d) -> map g (upd n (fun _ => v) l) = map g l.
Proof. revert n; induction l; destruct n; simpl; intros; auto; f_equal; auto. Qed.

Definition b2n (b : bool) : nat := if b then 1 else 0.

Lemma count_app {A} (p : A -> bool) l1 l2 : count p (l1 ++ l2) = count p l1 + count p l2.
Proof. unfold count. rewrite filter_app, app_length. auto. Qed.

Lemma count_cons {A} (p : A -> bool) x l : count p (x :: l) = b2n (p x) + count p l.
Proof. unfold count. simpl. destruct (p x); auto. Qed.

Lemma count_map {A B} (p : B -> bool) (g : A -> B) l : count p (map g l) = count (fun x => p (g x)) l.
Proof. induction l; auto. simpl map. rewrite !count_cons, IHl. auto. Qed.

Lemma count_upd {A} (p : A -> bool) n f l d : n < length l ->
  count p (upd n f l) + b2n (p (nth n l d)) = count p l + b2n (p (f (nth n l d))).
Proof.
  revert n; induction l; intros n H; simpl in H; try lia.
  destruct n; simpl upd; simpl nth; rewrite !count_cons.
  - lia.
  - specialize (IHl n ltac:(lia)). lia.
Qed.

Lemma count_upd_same {A} (p : A -> bool) n f l : (forall x, p (f x) = p x) -> count p (upd n f l) = count p l.
Proof.
  intros H. revert n; induction l; intros n; destruct n; simpl; auto; rewrite !count_cons, ?H; auto.
Qed.

Lemma count_le {A} (p q : A -> bool) l : (forall x, p x = true -> q x = true) -> count p l <= count q l.
Proof.
  intros H. induction l; auto. rewrite !count_cons. specialize (H a).
  destruct (p a); simpl; try lia. rewrite H; simpl; auto; lia.
Qed.

Lemma count_pos {A} (p : A -> bool) l d n : n < length l -> p (nth n l d) = true -> 1 <= count p l.
Proof.
  revert n; induction l; intros n H P; simpl in *; try lia. rewrite count_cons.
  destruct n. rewrite P; simpl; lia. specialize (IHl n ltac:(lia) P). lia.
Qed.

Lemma count_unique {A} (p : A -> bool) l d :
  (forall i j, i < length l -> j < length l -> p (nth i l d) = true -> p (nth j l d) = true -> i = j) ->
  count p l <= 1.
Proof.
  induction l; intros H; auto. rewrite count_cons.
  assert (IH : count p l <= 1).
  { apply IHl. intros i j Hi Hj Pi Pj. apply (H (S i) (S j)) in Pj; simpl; auto; lia. }
  destruct (p a) eqn:Pa; simpl; auto.
  (* the head satisfies p: nothing in the tail does *)
  unfold count in *. destruct (filter p l) as [|x r] eqn:F; auto. exfalso.
  assert (Hx : In x (filter p l)) by (rewrite F; left; auto). apply filter_In in Hx as [Hx Px].
  destruct (In_nth l x d Hx) as (i & Hi & <-). specialize (H 0 (S i)). simpl in H. discriminate H; auto; lia.
Qed.

Definition woken_first (l : list (nat * wfut)) : list (nat * wfut) :=
  match l with (k, WPending) :: r => (k, WWoken) :: r | l => l end.

Lemma set_rq_id s : set_rq (rq s) s = s.
Proof. destruct s; reflexivity. Qed.

Lemma mark_rq k f s : exists q, mark k f s = set_rq q (f s).
Proof. unfold mark. destruct (enabled s k); eexists; [symmetry; apply set_rq_id | reflexivity]. Qed.

Lemma sched_lost_rq c s : exists q, sched_lost c s = set_rq q s.
Proof. unfold sched_lost. destruct (held _); eexists; [symmetry; apply set_rq_id | reflexivity]. Qed.

Lemma wake_first_rq s : exists q, wake_first s = set_rq q (set_waiters (woken_first (waiters s)) s).
Proof. destruct s as [p cs l w]. destruct w as [|[k []] r]; eexists; reflexivity. Qed.

Lemma release_rq s : exists q, release s = set_rq q (set_waiters (woken_first (waiters s)) (set_locked false s)).
Proof. exact (wake_first_rq (set_locked false s)). Qed.

(* transport.close() guarded by is_closing(): closing a closing connection changes nothing *)
Lemma close_rq c s : exists q,
  (if closing (getc s c) then s else sched_lost c (updc c (n_closing true) s)) = updc c (n_closing true) (set_rq q s).
Proof.
  destruct (closing (getc s c)) eqn:E; [|destruct (sched_lost_rq c (updc c (n_closing true) s)) as [q ->]; exists q; reflexivity].
  exists (rq s). unfold updc. simpl conns. rewrite (upd_fix c _ _ dead_conn). destruct s; reflexivity.
  fold (getc s c). destruct (getc s c); simpl in *. subst. reflexivity.
Qed.

Lemma proc_close_eq c s : exists q,
  proc_close c s = terminate c (updc c (fun x => n_lost true (n_closing true x)) (set_rq q s)).
Proof.
  unfold proc_close. destruct (close_rq c s) as [q ->]. exists q. unfold updc. simpl conns. rewrite upd_upd. reflexivity.
Qed.

Lemma wake_first_waiters' s : waiters (wake_first s) = woken_first (waiters s).
Proof. destruct (wake_first_rq s) as [q ->]. reflexivity. Qed.

Lemma lives_release s : map conn_live (conns (release s)) = map conn_live (conns s).
Proof. destruct (release_rq s) as [q ->]. reflexivity. Qed.

(* phase vector: the only thing most invariants need to know about the callers *)
Definition phases (s : state) : list phase := map ph (callers s).
Definition dph : phase := PEnd (RExn ECancelled).
Definition lives (s : state) : list bool := map conn_live (conns s).

Lemma phase_neq_dph p : p = PNew \/ p = PWait \/ (exists a, p = PAttempt a) \/ (exists c w, p = PGot c w) \/
  (exists c, p = PReg c) -> p <> dph.
Proof. intros [H|[H|[[a H]|[[c [w H]]|[c H]]]]]; subst; discriminate. Qed.

Lemma getk_ph s k : ph (getk s k) = nth k (phases s) dph.
Proof. symmetry. exact (map_nth ph _ no_caller k). Qed.

Lemma getk_lt s k : ph (getk s k) <> dph -> k < length (callers s).
Proof. rewrite getk_ph, <- (map_length ph). apply nth_lt. Qed.

Lemma phases_updk_to k f v s : (forall x, ph (f x) = v) -> phases (updk k f s) = upd k (fun _ => v) (phases s).
Proof. apply map_upd_to. Qed.

Lemma phases_updk k f s : (forall x, ph (f x) = ph x) -> phases (updk k f s) = phases s.
Proof. apply map_upd. Qed.

Lemma live_getc s c : conn_live (getc s c) = nth c (lives s) false.
Proof. symmetry. exact (map_nth conn_live _ dead_conn c). Qed.

Lemma lives_length s : length (lives s) = length (conns s).
Proof. apply map_length. Qed.

Lemma lives_updc c f s : (forall x, conn_live (f x) = conn_live x) -> lives (updc c f s) = lives s.
Proof. apply map_upd. Qed.

Lemma lives_app s x : lives (set_conns (conns s ++ [x]) s) = lives s ++ [conn_live x].
Proof. apply map_app. Qed.

Lemma lives_mono_upd l l' c f c' : l' = upd c f l -> (forall x, conn_live (f x) = true -> conn_live x = true) ->
  nth c' (map conn_live l') false = true -> nth c' (map conn_live l) false = true.
Proof. intros -> H. revert c c'. induction l; intros [|c] [|c']; simpl; auto. apply IHl. Qed.

(* all that the invariants read of a state: not the ready queue, the channel state or the flags of callers, and
   of a connection only whether it is live.  The components go by these letters throughout: P phases, W waiters
   of the lock, L lock held, Pr the channel's protocol, V which connections are live, F `fails`, C `creates` *)
Record view := View {
  vP : list phase; vW : list (nat * wfut); vL : bool; vPr : option nat; vV : list bool; vF : list nat; vC : nat }.

Definition view_of (s : state) : view :=
  View (phases s) (waiters s) (locked s) (protocol s) (lives s) (fails s) (creates s).

Definition vconnected (Pr : option nat) (V : list bool) : bool :=
  match Pr with Some c => nth c V false | None => false end.

Lemma connected_lives s : connected s = vconnected (protocol s) (lives s).
Proof. unfold connected. destruct (protocol s); auto. apply live_getc. Qed.

Lemma view_setph k v s : view_of (setph k v s) =
  View (upd k (fun _ => v) (phases s)) (waiters s) (locked s) (protocol s) (lives s) (fails s) (creates s).
Proof. unfold view_of, setph. rewrite (phases_updk_to k _ v) by auto. reflexivity. Qed.

Definition is_att (p : phase) : bool := match p with PAttempt _ => true | _ => false end.
Definition nonwoken (e : nat * wfut) : Prop := is_wwoken (snd e) = false.
Definition connect_phase (p : phase) : bool := match p with PNew | PWait | PAttempt _ => true | _ => false end.
Definition POSError : phase := PEnd (RExn EOSError).

(* phases up to what no invariant looks at: the wake-up flag of PGot, and which way an unfinished attempt goes *)
Definition coarse (p : phase) : phase :=
  match p with PGot c _ => PGot c false | PAttempt (AFlight _) => PAttempt AAbort | _ => p end.

(* connections only ever get "more dead": lost / closing / delivered are never reset *)
Definition conn_le (x y : conn) : Prop :=
  (lost x = true -> lost y = true) /\ (closing x = true -> closing y = true) /\
  (delivered x = true -> delivered y = true).

Definition dies (V V' : list bool) : Prop :=
  length V' = length V /\ forall c, nth c V' false = true -> nth c V false = true.

(* the phase in which `ret` leaves a caller when the channel's protocol is Pr *)
Definition handed (Pr : option nat) (v : phase) : Prop :=
  v = PEnd (RExn EAttr) \/ exists c, Pr = Some c /\ (v = PGot c false \/ v = PReg c).

(* v names a connection alive in V, and is not the AttributeError of a dead one *)
Definition good (v : phase) (V : list bool) : Prop :=
  match v with PGot c _ | PReg c => nth c V false = true | PEnd (RExn EAttr) => False | _ => True end.

(* caller k takes the lock, leaving the waiters W1 behind: either the lock is free, or k is the woken head *)
Definition acquires (k : nat) (P : list phase) (W : list (nat * wfut)) (L : bool) (W1 : list (nat * wfut)) : Prop :=
  nth k P dph = PNew /\ L = false /\ Forall nonwoken W /\ W1 = W \/
  nth k P dph = PWait /\ wlookup k W = Some WWoken /\ W1 = wremove k W.

(* the body of `async with self._connect_lock`, entered by k *)
Inductive section_outcome (k : nat) (P : list phase) (W : list (nat * wfut)) (Pr : option nat) (V : list bool)
  (F : list nat) (C : nat) : view -> Prop :=
| so_shared v (Cn : vconnected Pr V = true) (Hv : handed Pr v) (Gv : good v V) :
    section_outcome k P W Pr V F C (View (upd k (fun _ => v) P) (woken_first W) false Pr V F C)
| so_made v (Cn : vconnected Pr V = false) (Hv : handed (Some (length V)) v) (Gv : good v (V ++ [true])) :
    section_outcome k P W Pr V F C
      (View (upd k (fun _ => v) P) (woken_first W) false (Some (length V)) (V ++ [true]) F (S C))
| so_raised (Cn : vconnected Pr V = false) :
    section_outcome k P W Pr V F C (View (upd k (fun _ => POSError) P) (woken_first W) false Pr V (F ++ [k]) (S C))
| so_started o (Cn : vconnected Pr V = false) :
    section_outcome k P W Pr V F C (View (upd k (fun _ => PAttempt (AFlight o)) P) W true Pr V F (S C)).

Inductive vstep : op -> view -> view -> Prop :=
| vs_start P W L Pr V F C : vstep Start (View P W L Pr V F C) (View (P ++ [PNew]) W L Pr V F C)
| vs_made k P W L Pr V F C (E : nth k P dph = PAttempt (AFlight OOk)) :
    vstep (Resolve k) (View P W L Pr V F C)
      (View (upd k (fun _ => PAttempt (AOk (length V))) P) W L Pr (V ++ [true]) F C)
| vs_failed k P W L Pr V F C (E : nth k P dph = PAttempt (AFlight OFail)) :
    vstep (Resolve k) (View P W L Pr V F C) (View (upd k (fun _ => PAttempt AFail) P) W L Pr V (F ++ [k]) C)
(* everything that neither enters nor leaves __connect__.  Cancel sets a flag, marks an attempt in flight as
   aborted (`coarse`) or cancels a pending waiter's future (`wset`); Lose, GoAway and KAClose let a connection
   die; ChClose drops the protocol after closing its connection; Pause, Resume, Answer, Hold and every step
   without effect change nothing but what `coarse` hides *)
| vs_env o P' W' Pr' V' P W L Pr V F C
    (EP : map coarse P' = map coarse P) (EW : W' = W \/ (exists k, W' = wset k WCancelled W)) (D : dies V V')
    (EPr : Pr' = Pr \/ Pr' = None /\ vconnected Pr V' = false) :
    vstep o (View P W L Pr V F C) (View P' W' L Pr' V' F C)
(* a task step that does not touch the lock; it may queue k as a waiter or take it out of the queue *)
| vs_outside k v W' P W (L : bool) Pr V F C
    (NA : is_att (nth k P dph) = false) (NV : is_att v = false) (NO : v <> POSError)
    (Gv : connect_phase (nth k P dph) = true -> good v V)
    (EW : W' = W \/ W' = W ++ [(k, WPending)] \/ W' = (if L then wremove k W else woken_first (wremove k W))) :
    vstep (Run k) (View P W L Pr V F C) (View (upd k (fun _ => v) P) W' L Pr V F C)
| vs_section k W1 w' P W L Pr V F C (A : acquires k P W L W1) (O : section_outcome k P W1 Pr V F C w') :
    vstep (Run k) (View P W L Pr V F C) w'
(* the lock holder resumes: cancelled (a connection already made is closed), with the connection, with OSError *)
| vs_aborted k a V' P W L Pr V F C
    (E : nth k P dph = PAttempt a) (D : dies V V') (K : forall c, a = AOk c -> nth c V' false = false) :
    vstep (Run k) (View P W L Pr V F C)
      (View (upd k (fun _ => PEnd (RExn ECancelled)) P) (woken_first W) false Pr V' F C)
| vs_stored k c v P W L Pr V F C
    (E : nth k P dph = PAttempt (AOk c)) (Hv : handed (Some c) v) (Gv : nth c V false = true -> good v V) :
    vstep (Run k) (View P W L Pr V F C) (View (upd k (fun _ => v) P) (woken_first W) false (Some c) V F C)
| vs_raised k P W L Pr V F C (E : nth k P dph = PAttempt AFail) :
    vstep (Run k) (View P W L Pr V F C) (View (upd k (fun _ => POSError) P) (woken_first W) false Pr V F C).

Lemma dies_refl V : dies V V.
Proof. split; auto. Qed.

Lemma vs_same o w : vstep o w w.
Proof. destruct w. apply vs_env; auto using dies_refl. Qed.

Lemma dies_updc c f s : (forall x, conn_live (f x) = true -> conn_live x = true) -> dies (lives s) (lives (updc c f s)).
Proof.
  intros H. split.
  - unfold lives. rewrite !map_length. apply upd_length.
  - intros c'. apply (lives_mono_upd _ _ c f c' eq_refl H).
Qed.

Lemma killed c f s : (forall x, conn_live (f x) = false) -> nth c (lives (updc c f s)) false = false.
Proof.
  intros H. rewrite <- live_getc. unfold getc. simpl conns. rewrite nth_upd, Nat.eqb_refl. simpl andb.
  destruct (Nat.ltb c (length (conns s))) eqn:B; auto. apply Nat.ltb_ge in B. rewrite nth_overflow; auto.
Qed.

Lemma ret_view k s : exists v,
  view_of (ret k s) =
    View (upd k (fun _ => v) (phases s)) (waiters s) (locked s) (protocol s) (lives s) (fails s) (creates s) /\
  handed (protocol s) v /\ (connected s = true -> good v (lives s)).
Proof.
  unfold ret, connected. destruct (protocol s) as [c|] eqn:Pr.
  - unfold proceed, register, endc.
    destruct (closing (getc s c)) eqn:Ec; [|destruct (paused (getc s c))]; eexists;
      rewrite view_setph, ?lives_updc by (intros []; reflexivity); simpl protocol; rewrite Pr; (split; [reflexivity|]).
    + split. left; reflexivity. unfold conn_live. rewrite Ec, andb_false_r. discriminate.
    + split. right; eauto. rewrite live_getc. auto.
    + split. right; eauto. rewrite live_getc. auto.
  - eexists. unfold endc. rewrite view_setph, Pr. split. reflexivity. split. left; reflexivity. discriminate.
Qed.

Lemma finish_ok_view k c s : exists v,
  view_of (finish_ok k c s) =
    View (upd k (fun _ => v) (phases s)) (woken_first (waiters s)) false (Some c) (lives s) (fails s) (creates s) /\
  handed (Some c) v /\ (nth c (lives s) false = true -> good v (lives s)).
Proof.
  unfold finish_ok. destruct (release_rq (set_chst Ready (set_protocol (Some c) s))) as [q ->].
  match goal with |- context [ret k ?t] => destruct (ret_view k t) as (v & -> & Hv & Gv) end.
  exists v. split. reflexivity. split. exact Hv. rewrite <- live_getc. exact Gv.
Qed.

Lemma locked_section_outcome k s : locked s = true ->
  section_outcome k (phases s) (waiters s) (protocol s) (lives s) (fails s) (creates s) (view_of (locked_section k s)).
Proof.
  intros HL. unfold locked_section. cbv zeta. change (connected (set_chst Connecting s)) with (connected s).
  destruct (connected s) eqn:Cn; rewrite connected_lives in Cn; simpl negb; cbv iota.
  - destruct (release_rq (set_chst Connecting s)) as [q ->].
    match goal with |- context [ret k ?t] => destruct (ret_view k t) as (v & -> & Hv & Gv) end.
    apply so_shared; auto. apply Gv. rewrite connected_lives. exact Cn.
  - unfold attempt. destruct (hd _ _) as [o inl]. cbv zeta. destruct inl; [destruct o|].
    + unfold new_conn.
      match goal with |- context [finish_ok k ?c ?t] => destruct (finish_ok_view k c t) as (v & -> & Hv & Gv);
        change (lives t) with (lives (set_conns (conns s ++ [fresh_conn]) s)) in * end.
      rewrite lives_app, <- lives_length in *. apply so_made; auto. apply Gv. apply nth_app_new.
    + unfold finish_fail, endc. match goal with |- context [release ?t] => destruct (release_rq t) as [q ->] end.
      rewrite view_setph. apply so_raised; auto.
    + rewrite view_setph. simpl locked. rewrite HL. apply so_started; auto.
Qed.

(* a leaf `endc k r s'` / `register k c s'` of run_caller where only k's phase matters: a vs_outside move that
   leaves the waiters alone (W' = W) *)
Ltac outside E :=
  unfold endc, register; rewrite view_setph, ?lives_updc by (intros []; reflexivity);
  match type of E with nth ?k ?P _ = _ => apply (vs_outside k _ _ P) end;
  [rewrite E; reflexivity | reflexivity | discriminate | rewrite E; try discriminate; intros; exact I | auto].

Lemma run_caller_vstep k s : vstep (Run k) (view_of s) (view_of (run_caller k s)).
Proof.
  unfold run_caller. cbv zeta. change (view_of s) with (view_of (deq (IRun k) s)).
  generalize (deq (IRun k) s). clear s. intros s.
  rewrite getk_ph. destruct (nth k (phases s) dph) eqn:E; try apply vs_same.
  - (* PNew *)
    destruct (cancelp (getk s k)). outside E.
    unfold enter. destruct (connected s) eqn:Cn.
    + destruct (ret_view k s) as (v & -> & Hv & Gv).
      apply vs_outside; auto; try (rewrite E; reflexivity); destruct Hv as [->|(c & _ & [->| ->])]; auto; discriminate.
    + destruct (lock_free s) eqn:LF.
      * apply andb_prop in LF. destruct LF as [L F]. apply negb_true_iff in L.
        eapply vs_section. 2: exact (locked_section_outcome k (set_locked true s) eq_refl).
        left. repeat split; auto.
        apply Forall_forall. intros [j f] Hj. rewrite forallb_forall in F. specialize (F _ Hj). destruct f; try reflexivity; discriminate F.
      * outside E.
  - (* PWait *)
    destruct (wlookup k (waiters s)) eqn:WL; try apply vs_same.
    destruct (cancelp (getk s k)).
    + simpl locked.
      destruct (locked s) eqn:L; [|destruct (wake_first_rq (set_waiters (wremove k (waiters s)) s)) as [q ->]];
        unfold endc; rewrite view_setph; apply (vs_outside k _ _ (phases s) (waiters s) (locked s));
        rewrite ?E, ?L; auto; try discriminate; intros; exact I.
    + destruct w; try apply vs_same. simpl is_wwoken. cbv iota.
      eapply vs_section. 2: exact (locked_section_outcome k (set_locked true (set_waiters (wremove k (waiters s)) s)) eq_refl).
      right. auto.
  - (* PAttempt *)
    destruct (cancelp (getk s k)).
    + unfold endc.
      destruct a as [o|c| |]; [|destruct (close_rq c s) as [q' ->]| |];
        match goal with |- context [release ?t] => destruct (release_rq t) as [q ->] end; rewrite view_setph;
        (eapply (vs_aborted k _ _ (phases s)); [exact E | | ]); try apply dies_refl; try discriminate.
      * apply (dies_updc c _ (set_rq q' s)). intros []; unfold conn_live; simpl; rewrite andb_false_r; discriminate.
      * intros c' [= <-]. apply (killed c _ (set_rq q' s)). intros []; apply andb_false_r.
    + destruct a as [o|c| |]; try apply vs_same.
      * destruct (finish_ok_view k c s) as (v & -> & Hv & Gv). apply vs_stored; auto.
      * unfold finish_fail, endc. match goal with |- context [release ?t] => destruct (release_rq t) as [q ->] end.
        rewrite view_setph. apply vs_raised; auto.
  - (* PGot *)
    destruct (cancelp (getk s k)). outside E. destruct woken; try apply vs_same. cbv zeta.
    destruct (goaway _). outside E. destruct (closing _); outside E.
  - (* PReg *)
    destruct (term _); [|destruct (cancelp _); [|destruct (answered _); [|apply vs_same]]]; outside E.
Qed.

Lemma fold_left_inv {A B C} (g : A -> C) (f : A -> B -> A) :
  (forall x b, g (f x b) = g x) -> forall l x, g (fold_left f l x) = g x.
Proof. intros H. induction l; simpl; intros; auto. rewrite IHl. apply H. Qed.

Lemma view_set_rq q s : view_of (set_rq q s) = view_of s.
Proof. reflexivity. Qed.

Lemma view_mark k f s : view_of (mark k f s) = view_of (f s).
Proof. destruct (mark_rq k f s) as [q ->]. reflexivity. Qed.

Lemma view_updk k f s : (forall x, ph (f x) = ph x) -> view_of (updk k f s) = view_of s.
Proof. intros H. unfold view_of. rewrite phases_updk by exact H. reflexivity. Qed.

Lemma view_updc c f s : (forall x, conn_live (f x) = conn_live x) -> view_of (updc c f s) = view_of s.
Proof. intros H. unfold view_of. rewrite lives_updc by exact H. reflexivity. Qed.

(* `terminate` only sets flags of callers and schedules wake-ups *)
Lemma terminate_inv {C} (g : state -> C) :
  (forall q s, g (set_rq q s) = g s) -> (forall k f s, (forall x, ph (f x) = ph x) -> g (updk k f s) = g s) ->
  forall c s, g (terminate c s) = g s.
Proof.
  intros Hq Hf c s. apply (fold_left_inv g). intros x k. unfold terminate1.
  destruct (ph (getk x k)); auto. destruct (_ && _); auto.
  destruct (mark_rq k (updk k (c_term true)) x) as [q ->]. rewrite Hq. apply Hf. auto.
Qed.

Lemma terminate_view c s : view_of (terminate c s) = view_of s.
Proof. apply terminate_inv. reflexivity. apply view_updk. Qed.

Definition coarsen (w : view) : view := View (map coarse (vP w)) (vW w) (vL w) (vPr w) (vV w) (vF w) (vC w).

Lemma vs_flags o w w' : coarsen w' = coarsen w -> vstep o w w'.
Proof. destruct w, w'. intros [= ? -> -> -> -> -> ->]. apply vs_env; auto using dies_refl. Qed.

Lemma coarsen_updk k f v s : (forall x, ph (f x) = v) -> coarse v = coarse (nth k (phases s) dph) ->
  coarsen (view_of (updk k f s)) = coarsen (view_of s).
Proof.
  intros Hf H. unfold coarsen, view_of. simpl. rewrite (phases_updk_to k f v) by exact Hf.
  f_equal. apply map_upd_alike with (d := dph). exact H.
Qed.

Lemma cancel_caller_vstep k s : vstep (Cancel k) (view_of s) (view_of (cancel_caller k s)).
Proof.
  unfold cancel_caller. cbv zeta. destruct (cancelp _); try apply vs_same.
  rewrite getk_ph. destruct (nth k (phases s) dph) eqn:E; try apply vs_same.
  - (* PNew *) rewrite view_updk by auto. apply vs_same.
  - (* PWait: a pending future is cancelled, a woken one is not *)
    destruct (wlookup k (waiters s)) as [[]|]; try apply vs_same.
    + unfold enq. rewrite view_set_rq, view_updk by auto. apply vs_env; auto using dies_refl. right. exists k. reflexivity.
    + rewrite view_updk by auto. apply vs_same.
  - (* PAttempt: an attempt in flight is aborted *)
    destruct a; try apply vs_same; try (rewrite view_updk by auto; apply vs_same).
    unfold enq. rewrite view_set_rq. apply vs_flags, (coarsen_updk k _ (PAttempt AAbort)); auto. rewrite E. reflexivity.
  - (* PGot *) rewrite view_mark, view_updk by auto. apply vs_same.
  - (* PReg *) rewrite view_mark, view_updk by auto. apply vs_same.
Qed.

Theorem step_vstep s o : vstep o (view_of s) (view_of (step s o)).
Proof.
  destruct o; simpl step.
  - (* Start *) unfold view_of at 2, phases. simpl. rewrite map_app. apply vs_start.
  - (* Run *) apply run_caller_vstep.
  - (* Resolve *) rewrite getk_ph. destruct (nth k (phases s) dph) eqn:E; try apply vs_same.
    destruct a; try apply vs_same. destruct o; unfold new_conn, enq; rewrite view_set_rq, view_setph.
    + change (lives _) with (lives (set_conns (conns s ++ [fresh_conn]) s)). rewrite lives_app, <- lives_length.
      apply vs_made; auto.
    + apply vs_failed; auto.
  - (* Cancel *) apply cancel_caller_vstep.
  - (* Lose *) unfold conn_lost. cbv zeta. destruct (Nat.ltb _ _); [destruct (delivered _)|]; try apply vs_same.
    rewrite terminate_view. apply vs_env; auto. apply (dies_updc c _ s). intros []; discriminate.
  - (* GoAway *) destruct (valid_open s c); try apply vs_same.
    rewrite <- (view_updc c (n_goaway true) s) by (intros []; auto).
    destruct (proc_close_eq c (updc c (n_goaway true) s)) as [q ->]. rewrite terminate_view.
    apply vs_env; auto. apply (dies_updc c _ (set_rq q _)). intros []; discriminate.
  - (* KAClose *) destruct (valid_open s c); try apply vs_same.
    destruct (sched_lost_rq c (updc c (n_closing true) s)) as [q ->]. apply vs_env; auto.
    apply (dies_updc c _ s). intros []; unfold conn_live; simpl; rewrite andb_false_r; discriminate.
  - (* ChClose *) destruct (protocol s) as [c|] eqn:Pr; try apply vs_same.
    destruct (proc_close_eq c s) as [q ->].
    match goal with |- context [terminate c ?t] => pose proof (terminate_view c t) as [= HP HW HL _ HV HF HC] end.
    unfold view_of at 2. unfold phases, lives in *. simpl. rewrite HP, HW, HL, HV, HF, HC. apply vs_env; auto.
    + apply (dies_updc c _ (set_rq q s)). intros []; discriminate.
    + right. rewrite Pr. split; auto. apply (killed c _ (set_rq q s)). intros []; reflexivity.
  - (* Pause *) destruct (valid_open s c); try apply vs_same. rewrite view_updc. apply vs_same. intros []; auto.
  - (* Resume: the callers waiting for write_ready on c are woken *)
    destruct (_ && _); try apply vs_same. apply vs_flags.
    rewrite (fold_left_inv (fun s => coarsen (view_of s))). rewrite view_updc. reflexivity. intros []; auto.
    intros x k. rewrite getk_ph. destruct (nth k (phases x) dph) eqn:E; auto. destruct woken; auto.
    destruct (Nat.eqb_spec c0 c) as [->|]; auto. rewrite view_mark. apply (coarsen_updk k _ (PGot c true)); auto.
    rewrite E. reflexivity.
  - (* Answer *) destruct (ph _); try apply vs_same. destruct (_ && _); try apply vs_same.
    rewrite view_mark, view_updk by auto. apply vs_same.
  - (* Hold *) rewrite view_updc. apply vs_same. intros []; auto.
Qed.

Definition natt (s : state) : nat := count is_att (phases s).
Definition head_woken (l : list (nat * wfut)) : bool :=
  match l with (_, WWoken) :: _ => true | _ => false end.

(* the lock invariant: at most one caller is inside `async with self._connect_lock` *)
Definition InvLock (s : state) : Prop :=
  Forall nonwoken (tl (waiters s)) /\
  (if locked s then natt s = 1 /\ head_woken (waiters s) = false else natt s = 0).

Definition lock_ok (P : list phase) (W : list (nat * wfut)) (L : bool) : Prop :=
  Forall nonwoken (tl W) /\ (if L then count is_att P = 1 /\ head_woken W = false else count is_att P = 0).

Lemma natt_alike P P' : map is_att P' = map is_att P -> count is_att P' = count is_att P.
Proof.
  intros H. transitivity (count (fun b : bool => b) (map is_att P')). symmetry; exact (count_map _ is_att P').
  rewrite H. exact (count_map _ is_att P).
Qed.

Lemma att_coarse P P' : map coarse P' = map coarse P -> map is_att P' = map is_att P.
Proof.
  assert (E : forall l, map is_att (map coarse l) = map is_att l).
  { intros l. rewrite map_map. apply map_ext. intros [| |[]| | |]; reflexivity. }
  intros H. rewrite <- (E P'), H. apply E.
Qed.

Lemma att_lt P k : is_att (nth k P dph) = true -> k < length P.
Proof. intros H. apply (nth_lt k P dph). intros X. rewrite X in H. discriminate. Qed.

Lemma att_pos P k : is_att (nth k P dph) = true -> 1 <= count is_att P.
Proof. intros H. exact (count_pos is_att P dph k (att_lt P k H) H). Qed.

Lemma holder_alone P W L k : lock_ok P W L -> is_att (nth k P dph) = true -> count is_att P = 1.
Proof. intros [_ I] A. apply att_pos in A. destruct L; lia. Qed.

Lemma woken_first_tl l : tl (woken_first l) = tl l.
Proof. destruct l as [|[k []] r]; auto. Qed.

Lemma Forall_tl {A} (P : A -> Prop) l : Forall P l -> Forall P (tl l).
Proof. intros H. destruct H; simpl; auto. Qed.

Lemma nonwoken_head l : Forall nonwoken l -> head_woken l = false.
Proof. intros H. destruct H as [|[k []]]; auto. Qed.

Lemma nonwoken_all l : Forall nonwoken (tl l) -> head_woken l = false -> Forall nonwoken l.
Proof. destruct l as [|[k []] r]; simpl; intros; auto; try discriminate; constructor; auto; reflexivity. Qed.

Lemma Forall_tl_filter {A} (P : A -> Prop) p (l : list A) : Forall P (tl l) -> Forall P (tl (filter p l)).
Proof.
  destruct l; simpl; auto. intros H. apply (incl_Forall (incl_filter p l)) in H.
  destruct (p a); simpl; auto. apply Forall_tl; auto.
Qed.

Lemma wlookup_in k l f : wlookup k l = Some f -> In (k, f) l.
Proof.
  induction l as [|[j g] r]; simpl; try discriminate. destruct (Nat.eqb_spec j k); auto.
  intros [= ->]. subst. auto.
Qed.

Lemma woken_is_head P W L k : lock_ok P W L -> wlookup k W = Some WWoken ->
  L = false /\ Forall nonwoken (wremove k W).
Proof.
  intros [T I] H. apply wlookup_in in H. 
  assert (N : ~ Forall nonwoken W). { rewrite Forall_forall. intros X. discriminate (X _ H). }
  split.
  - destruct L; auto. destruct N. apply nonwoken_all; tauto.
  - destruct W as [|[j f] r]; simpl in *. contradiction.
    unfold wremove. simpl. destruct H as [[= -> ->]|H].
    + rewrite Nat.eqb_refl. apply (incl_Forall (incl_filter _ r)); auto.
    + rewrite Forall_forall in T. discriminate (T _ H).
Qed.

Lemma acquires_free k P W L W1 : acquires k P W L W1 -> lock_ok P W L ->
  L = false /\ Forall nonwoken W1 /\ k < length P /\ is_att (nth k P dph) = false.
Proof.
  intros [(E & -> & F & ->)|(E & H & ->)] I; rewrite E.
  - repeat split; auto. apply (nth_lt k P dph). rewrite E. discriminate.
  - destruct (woken_is_head _ _ _ _ I H). repeat split; auto. apply (nth_lt k P dph). rewrite E. discriminate.
Qed.

Lemma wset_tl k l : Forall nonwoken (tl l) -> Forall nonwoken (tl (wset k WCancelled l)).
Proof.
  destruct l as [|[j f] r]; simpl; auto. destruct (Nat.eqb j k); simpl; auto. clear.
  induction r as [|[j' f'] r]; simpl; auto. intros H. inversion H; subst.
  destruct (Nat.eqb j' k); constructor; auto. reflexivity.
Qed.

Lemma wset_head k l : head_woken l = false -> head_woken (wset k WCancelled l) = false.
Proof. destruct l as [|[j f] r]; simpl; auto. destruct (Nat.eqb j k); simpl; auto. Qed.

Lemma head_woken_app l x : head_woken (l ++ [(x, WPending)]) = head_woken l.
Proof. destruct l as [|[k f] r]; auto. Qed.

Lemma Forall_tl_app {A} (P : A -> Prop) l x : Forall P (tl l) -> P x -> Forall P (tl (l ++ [x])).
Proof. intros. destruct l; simpl; auto. apply Forall_app; auto. Qed.

Lemma handed_settled Pr v : handed Pr v -> is_att v = false /\ v <> POSError.
Proof. intros [->|(c & _ & [->| ->])]; split; auto; discriminate. Qed.

Lemma lock_leave P W L k v : lock_ok P W L -> is_att (nth k P dph) = true -> is_att v = false ->
  lock_ok (upd k (fun _ => v) P) (woken_first W) false.
Proof.
  intros [T I] A V. split. rewrite woken_first_tl; auto.
  pose proof (count_upd is_att k (fun _ => v) P dph (att_lt _ _ A)) as Q. rewrite A, V in Q. simpl in Q. destruct L; lia.
Qed.

Theorem vstep_lock o w w' : vstep o w w' -> lock_ok (vP w) (vW w) (vL w) -> lock_ok (vP w') (vW w') (vL w').
Proof.
  assert (Alike : forall P P' W L, map is_att P' = map is_att P -> lock_ok P W L -> lock_ok P' W L).
  { intros P P' W L H. unfold lock_ok. rewrite (natt_alike _ _ H). auto. }
  intros H; destruct H; simpl.
  - (* vs_start *) intros [T I]. split; auto. rewrite count_app. simpl. rewrite Nat.add_0_r. auto.
  - (* vs_made *) intros I. refine (Alike _ _ _ _ _ I). apply map_upd_alike with (d := dph). rewrite E; auto.
  - (* vs_failed *) intros I. refine (Alike _ _ _ _ _ I). apply map_upd_alike with (d := dph). rewrite E; auto.
  - (* vs_env *) intros I. apply (Alike P P') in I; [|apply att_coarse; auto]. destruct EW as [->|[k ->]]; auto.
    destruct I as [T I]. split. apply wset_tl; auto. destruct L; auto. split. tauto. apply wset_head; tauto.
  - (* vs_outside *)
    intros I. apply (Alike P (upd k (fun _ => v) P)) in I; [|apply map_upd_alike with (d := dph); congruence].
    destruct I as [T I]. destruct EW as [->|[->| ->]]; split; auto.
    + apply Forall_tl_app; auto. reflexivity.
    + rewrite head_woken_app. auto.
    + destruct L. apply Forall_tl_filter; auto. rewrite woken_first_tl. apply Forall_tl_filter; auto.
    + destruct L; auto. split. tauto. apply nonwoken_head, (incl_Forall (incl_filter _ W)), nonwoken_all; tauto.
  - (* vs_section: nobody was attempting; afterwards k is, or nobody *)
    intros I. destruct (acquires_free _ _ _ _ _ A I) as (-> & NW & Kl & NA). destruct I as [_ I]. simpl in I.
    assert (Q : forall v, count is_att (upd k (fun _ => v) P) = b2n (is_att v)).
    { intros v. pose proof (count_upd is_att k (fun _ => v) P dph Kl) as Q. rewrite NA in Q. simpl in Q. lia. }
    destruct O; unfold lock_ok; simpl; rewrite Q, ?(proj1 (handed_settled _ _ Hv));
      (split; [rewrite ?woken_first_tl; apply Forall_tl, NW|]); auto.
    split; auto. apply nonwoken_head, NW.
  - (* vs_aborted *) intros I. apply (lock_leave P W L k _ I); auto. rewrite E; auto.
  - (* vs_stored *) intros I. apply (lock_leave P W L k _ I). rewrite E; auto. apply (handed_settled _ _ Hv).
  - (* vs_raised *) intros I. apply (lock_leave P W L k _ I); auto. rewrite E; auto.
Qed.

Definition live_at (s : state) (c : nat) : Prop := nth c (lives s) false = true.
Definition aok (s : state) (k c : nat) : Prop := nth k (phases s) dph = PAttempt (AOk c).

(* at most one live connection: it is the channel's, or the one a finished attempt still holds *)
Definition InvLive (s : state) : Prop :=
  (forall c, live_at s c -> protocol s = Some c \/ exists k, aok s k c) /\
  (1 <= natt s -> connected s = false) /\
  (forall c, protocol s = Some c -> c < length (conns s)) /\
  (forall k c, aok s k c -> c < length (conns s)).

Definition live_ok (P : list phase) (Pr : option nat) (V : list bool) : Prop :=
  (forall c, nth c V false = true -> Pr = Some c \/ exists k, nth k P dph = PAttempt (AOk c)) /\
  (1 <= count is_att P -> vconnected Pr V = false) /\
  (forall c, Pr = Some c -> c < length V) /\
  (forall k c, nth k P dph = PAttempt (AOk c) -> c < length V).

(* the connection a finished attempt holds *)
Definition made (p : phase) : option nat := match p with PAttempt (AOk c) => Some c | _ => None end.

Lemma made_aok p c : made p = Some c <-> p = PAttempt (AOk c).
Proof. destruct p as [| |[]| | |]; simpl; split; intros [=]; subst; auto. Qed.

Lemma made_coarse p : made (coarse p) = made p.
Proof. destruct p as [| |[]| | |]; reflexivity. Qed.

Lemma map_nth_eq {A B} (g : A -> B) l l' d j : map g l' = map g l -> g (nth j l' d) = g (nth j l d).
Proof. intros H. rewrite <- (map_nth g l' d), <- (map_nth g l d), H. reflexivity. Qed.

Lemma att_unique P k1 k2 : count is_att P <= 1 -> is_att (nth k1 P dph) = true -> is_att (nth k2 P dph) = true -> k1 = k2.
Proof.
  intros N A1 A2. destruct (Nat.eq_dec k1 k2) as [|D]; auto. exfalso.
  (* with k1 overwritten the count drops to 0, yet k2 is still attempting *)
  pose proof (count_upd is_att k1 (fun _ => PNew) P dph (att_lt _ _ A1)) as Q. rewrite A1 in Q. simpl in Q.
  assert (1 <= count is_att (upd k1 (fun _ => PNew) P)) by (apply (att_pos _ k2); rewrite nth_upd_other; auto).
  lia.
Qed.

(* connections die, the protocol is kept or dropped with its connection dead, the finished attempts are the same *)
Lemma live_mono P P' Pr Pr' V V' :
  live_ok P Pr V -> dies V V' -> (forall j, made (nth j P' dph) = made (nth j P dph)) ->
  (1 <= count is_att P' -> vconnected Pr V = false) ->
  Pr' = Pr \/ Pr' = None /\ vconnected Pr V' = false -> live_ok P' Pr' V'.
Proof.
  intros (A & _ & C & D) [Len M] K N HP.
  assert (K' : forall j c, nth j P' dph = PAttempt (AOk c) <-> nth j P dph = PAttempt (AOk c)).
  { intros j c. rewrite <- !made_aok, K. tauto. }
  unfold live_ok. rewrite Len. repeat split.
  - intros c H. destruct (A c (M c H)) as [H1|[k H1]].
    + destruct HP as [->|[-> X]]; auto. rewrite H1 in X. simpl in X. congruence.
    + right. exists k. apply K'; auto.
  - intros H. specialize (N H). destruct HP as [->|[-> X]]; auto.
    destruct Pr as [c|]; auto. simpl in *. destruct (nth c V' false) eqn:E; auto. apply M in E. congruence.
  - intros c H. apply C. destruct HP as [->|[-> _]]; auto. discriminate.
  - intros j c H. apply K' in H. eauto.
Qed.

(* the lock holder k leaves __connect__: the only connection that can be live is the one k made *)
Lemma live_leave P W L Pr Pr' V V' k a v :
  lock_ok P W L -> live_ok P Pr V -> nth k P dph = PAttempt a -> is_att v = false -> dies V V' ->
  (forall c, a = AOk c -> nth c V' false = true -> Pr' = Some c) ->
  Pr' = Pr \/ (exists c, a = AOk c /\ Pr' = Some c) -> live_ok (upd k (fun _ => v) P) Pr' V'.
Proof.
  intros IL (A & B & C & D) E Hv [Len M] J HP.
  assert (N := holder_alone _ _ _ k IL). rewrite E in N. specialize (N eq_refl).
  assert (N' : count is_att (upd k (fun _ => v) P) = 0).
  { pose proof (count_upd is_att k (fun _ => v) P dph) as Q. rewrite E, Hv in Q. simpl in Q.
    specialize (Q ltac:(apply (nth_lt k P dph); rewrite E; discriminate)). lia. }
  unfold live_ok. rewrite Len, N'. repeat split; try lia.
  - intros c H. left. apply J; auto. specialize (M c H). destruct (A c M) as [H1|[j H1]].
    + specialize (B ltac:(lia)). rewrite H1 in B. simpl in B. congruence.
    + assert (j = k). { apply (att_unique P); try lia; rewrite ?H1, ?E; auto. }
      subst j. congruence.
  - intros c H. destruct HP as [->|(c' & -> & ->)]; auto. inversion H; subst. eauto.
  - intros j c H. rewrite nth_upd in H. destruct (_ && _). subst v; discriminate. eauto.
Qed.

Lemma made_none p : is_att p = false -> made p = None.
Proof. destruct p; try discriminate; auto. Qed.

Lemma live_upd P Pr V k v : live_ok P Pr V -> is_att v = is_att (nth k P dph) -> made v = made (nth k P dph) ->
  live_ok (upd k (fun _ => v) P) Pr V.
Proof.
  intros I A M. apply (live_mono P _ Pr Pr V V I (dies_refl V)); auto.
  - intros j. apply map_nth_eq, map_upd_alike with (d := dph); auto.
  - rewrite (natt_alike P). apply I. apply map_upd_alike with (d := dph); auto.
Qed.

Theorem vstep_live o w w' : vstep o w w' -> lock_ok (vP w) (vW w) (vL w) -> live_ok (vP w) (vPr w) (vV w) ->
  live_ok (vP w') (vPr w') (vV w').
Proof.
  intros H; destruct H; simpl; intros IL I.
  - (* vs_start *) apply (live_mono P _ Pr Pr V V I (dies_refl V)); auto.
    + intros j. destruct (nth_app_cases P PNew dph j) as [->|[-> ->]]; auto. rewrite nth_overflow; auto.
    + rewrite count_app. simpl. rewrite Nat.add_0_r. apply I.
  - (* vs_made: a new connection, held by k's finished attempt *)
    destruct I as (Held & B & G & Lt). unfold live_ok. rewrite app_length. simpl length.
    assert (Kl : k < length P) by (apply (nth_lt k P dph); rewrite E; discriminate).
    repeat split.
    + intros c Hc. destruct (nth_app_cases V true false c) as [Ec|[-> _]].
      * rewrite Ec in Hc. destruct (Held c Hc) as [|[j Hj]]; auto. right. exists j.
        rewrite nth_upd_other; auto. intros <-. congruence.
      * right. exists k. apply nth_upd_same; auto.
    + rewrite (natt_alike P); [|apply map_upd_alike with (d := dph); rewrite E; auto].
      intros N. specialize (B N). destruct Pr as [c|]; auto. simpl in *. rewrite nth_app_old; auto.
    + intros c Hc. apply G in Hc. lia.
    + intros j c Hj. rewrite nth_upd in Hj. destruct (_ && _). inversion Hj. lia. apply Lt in Hj. lia.
  - (* vs_failed *) apply live_upd; auto; rewrite E; auto.
  - (* vs_env *) apply (live_mono P _ Pr _ V _ I D); auto.
    + intros j. rewrite <- (made_coarse (nth j P' dph)), (map_nth_eq coarse _ _ dph j EP). apply made_coarse.
    + rewrite (natt_alike P). apply I. apply att_coarse; auto.
  - (* vs_outside *) apply live_upd; auto. congruence. rewrite !made_none; auto.
  - (* vs_section *)
    destruct (acquires_free _ _ _ _ _ A IL) as (-> & _ & Kl & NA). destruct IL as [_ N0]. simpl in N0.
    assert (S : forall v, is_att v = false -> live_ok (upd k (fun _ => v) P) Pr V).
    { intros v NV. apply live_upd; auto. congruence. rewrite !made_none; auto. }
    destruct O; simpl.
    + (* so_shared *) apply S. apply (handed_settled _ _ Hv).
    + (* so_made: a new connection, stored at once; there was no live one *)
      destruct I as (Held & B & G & Lt). unfold live_ok. rewrite app_length. simpl length.
      repeat split; try lia.
      * intros c Hc. destruct (nth_app_cases V true false c) as [Ec|[-> _]]; auto.
        rewrite Ec in Hc. exfalso. destruct (Held c Hc) as [->|[j Hj]].
        -- simpl in Cn. congruence.
        -- assert (1 <= count is_att P) by (apply (att_pos P j); rewrite Hj; auto). lia.
      * intros X. destruct (handed_settled _ _ Hv) as [NV _].
        pose proof (count_upd is_att k (fun _ => v) P dph Kl) as Q. rewrite NA, NV in Q. simpl in Q. lia.
      * intros c [= <-]. lia.
      * intros j c Hj. rewrite nth_upd in Hj. destruct (_ && _).
        -- subst v. destruct (handed_settled _ _ Hv). discriminate.
        -- apply Lt in Hj. lia.
    + (* so_raised *) apply S. auto.
    + (* so_started *) apply (live_mono P _ Pr Pr V V I (dies_refl V)); auto.
      intros j. apply map_nth_eq, map_upd_alike with (d := dph). symmetry. apply made_none; auto.
  - (* vs_aborted *)
    apply (live_leave P W L Pr _ V _ k a _ IL I E); auto. intros c -> Hc. rewrite K in Hc; auto. discriminate.
  - (* vs_stored *)
    apply (live_leave P W L Pr _ V _ k _ _ IL I E (proj1 (handed_settled _ _ Hv)) (dies_refl V)).
    intros c' [= ->]; auto. right. exists c. auto.
  - (* vs_raised *)
    apply (live_leave P W L Pr _ V _ k _ POSError IL I E eq_refl (dies_refl V)); auto. intros c; discriminate.
Qed.

(* k's _create_connection raised, whether or not k's task has seen it yet *)
Definition failed (p : phase) : bool :=
  match p with PEnd (RExn EOSError) | PAttempt AFail => true | _ => false end.
Definition fail_ok (P : list phase) (F : list nat) : Prop := forall j, failed (nth j P dph) = true -> In j F.

Lemma failed_coarse p : failed (coarse p) = failed p.
Proof. destruct p as [| |[]| | |]; reflexivity. Qed.

Lemma settled_not_failed v : is_att v = false -> v <> POSError -> failed v = false.
Proof. destruct v as [| | | | |[|[]]]; try reflexivity; try discriminate. intros _ H. destruct H. reflexivity. Qed.

Lemma fail_upd P F F' k v : fail_ok P F -> incl F F' ->
  (failed v = true -> failed (nth k P dph) = true \/ In k F') -> fail_ok (upd k (fun _ => v) P) F'.
Proof.
  intros I S H j Hj. rewrite nth_upd in Hj.
  destruct (Nat.eqb_spec k j) as [->|]; simpl in Hj; [destruct (Nat.ltb _ _)|]; auto. destruct (H Hj); auto.
Qed.

Theorem vstep_fail o w w' : vstep o w w' -> fail_ok (vP w) (vF w) -> fail_ok (vP w') (vF w').
Proof.
  assert (Q : forall P F k v, fail_ok P F -> failed v = false -> fail_ok (upd k (fun _ => v) P) F).
  { intros P F k v I H. apply (fail_upd P F); auto using incl_refl. rewrite H. discriminate. }
  assert (R : forall P F k v, fail_ok P F -> fail_ok (upd k (fun _ => v) P) (F ++ [k])).
  { intros P F k v I. apply (fail_upd P F); auto using incl_appl, incl_refl. right. apply in_or_app. simpl; auto. }
  (* Q or R settles vs_made, vs_failed and vs_aborted *)
  intros H; destruct H; simpl; intros I; auto.
  - (* vs_start *)
    intros j Hj. apply I. destruct (nth_app_cases P PNew dph j) as [<-|[_ Ej]]; auto. rewrite Ej in Hj. discriminate.
  - (* vs_env *)
    intros j Hj. apply I. rewrite <- failed_coarse, <- (map_nth_eq coarse _ _ dph j EP), failed_coarse. exact Hj.
  - (* vs_outside *) apply Q; auto. apply settled_not_failed; auto.
  - (* vs_section *) destruct O; simpl; auto; apply Q; auto; apply settled_not_failed; apply (handed_settled _ _ Hv).
  - (* vs_stored *) apply Q; auto. apply settled_not_failed; apply (handed_settled _ _ Hv).
  - (* vs_raised *) apply (fail_upd P F); auto using incl_refl. rewrite E. auto.
Qed.

Theorem vstep_creates o w w' : vstep o w w' ->
  vC w' = vC w \/ vC w' = S (vC w) /\ vconnected (vPr w) (vV w) = false /\ exists k, o = Run k.
Proof. intros H; destruct H; simpl; auto. destruct O; simpl; eauto. Qed.

Lemma connect_good p V : connect_phase p = true -> good p V.
Proof. destruct p; try discriminate; exact (fun _ => I). Qed.

Lemma connect_coarse p : connect_phase (coarse p) = connect_phase p.
Proof. destruct p as [| |[]| | |]; reflexivity. Qed.

Theorem vstep_good k w w' : vstep (Run k) w w' -> connect_phase (nth k (vP w) dph) = true ->
  (forall c, nth k (vP w) dph = PAttempt (AOk c) -> nth c (vV w) false = true) ->
  good (nth k (vP w') dph) (vV w').
Proof.
  intros H. remember (Run k) as r eqn:R. destruct H; try discriminate; simpl; intros CP OA;
    try (injection R as <-;
         assert (Kl : k0 < length P) by (apply (nth_lt k0 P dph); intros X; rewrite X in CP; discriminate)).
  - (* vs_env *)
    apply connect_good. rewrite <- connect_coarse, (map_nth_eq coarse _ _ dph k EP), connect_coarse. exact CP.
  - (* vs_outside *) rewrite nth_upd_same; auto.
  - (* vs_section *) destruct O; simpl; rewrite nth_upd_same; auto; exact I.
  - (* vs_aborted *) rewrite nth_upd_same; auto. exact I.
  - (* vs_stored *) rewrite nth_upd_same; auto.
  - (* vs_raised *) rewrite nth_upd_same; auto. exact I.
Qed.

Definition Inv (s : state) : Prop := InvLock s /\ InvLive s.

(* the invariants of a state are those of its view (InvLock by conversion) *)
Lemma Inv_view s : Inv s <-> lock_ok (phases s) (waiters s) (locked s) /\ live_ok (phases s) (protocol s) (lives s).
Proof. unfold Inv, InvLive, live_ok, live_at, aok. rewrite connected_lives, lives_length. reflexivity. Qed.

Lemma init_inv sc : Inv (init sc).
Proof.
  apply Inv_view. split. split; simpl; auto. repeat split; simpl; auto; try discriminate.
  - intros []; discriminate.
  - intros [] c; discriminate.
Qed.

Lemma step_inv s o : Inv s -> Inv (step s o).
Proof.
  rewrite !Inv_view. intros [A B]. pose proof (step_vstep s o) as H.
  split; [exact (vstep_lock _ _ _ H A) | exact (vstep_live _ _ _ H A B)].
Qed.

Lemma run_closed (Q : state -> Prop) : (forall s o, Q s -> Q (step s o)) -> forall ops s, Q s -> Q (run ops s).
Proof. intros H ops. induction ops; simpl; auto. Qed.

Lemma run_app l1 l2 s : run (l1 ++ l2) s = run l2 (run l1 s).
Proof. apply fold_left_app. Qed.

Lemma reach_inv sc ops : Inv (run ops (init sc)).
Proof. apply (run_closed Inv step_inv), init_inv. Qed.

Lemma attempting_natt s : attempting s = natt s.
Proof. symmetry. exact (count_map is_att ph (callers s)). Qed.

Lemma one_attempt sc ops :
  attempting (run ops (init sc)) <= 1 /\ attempts_in_flight (run ops (init sc)) <= 1.
Proof.
  destruct (reach_inv sc ops) as [[_ I] _]. set (s := run ops (init sc)) in *.
  assert (attempting s <= 1). { rewrite attempting_natt. destruct (locked s); lia. }
  split; auto. eapply Nat.le_trans; [|exact H]. apply count_le. intros x. unfold is_inflight, is_attempting.
  destruct (ph x); auto.
Qed.

Lemma lock_iff_attempting sc ops :
  let s := run ops (init sc) in locked s = true <-> attempting s = 1.
Proof.
  destruct (reach_inv sc ops) as [[_ I] _]. intros s. fold s in I. rewrite attempting_natt.
  destruct (locked s); split; intros; try tauto; try lia; try discriminate.
Qed.

Lemma live_at_lt s c : live_at s c -> c < length (conns s).
Proof. intros H. rewrite <- lives_length. apply (nth_lt c _ false). unfold live_at in H. congruence. Qed.

Lemma live_unique s i j : Inv s -> live_at s i -> live_at s j -> i = j.
Proof.
  intros [[_ IL] (A & B & _)] Hi Hj.
  assert (N : natt s <= 1) by (destruct (locked s); lia).
  assert (X : forall c k, aok s k c -> forall c', live_at s c' -> protocol s <> Some c').
  { intros c k Hk c' Hc' P. rewrite connected_lives, P in B. unfold live_at in Hc'. simpl in B. rewrite B in Hc'. discriminate.
    apply (att_pos _ k). rewrite Hk. auto. }
  destruct (A i Hi) as [Pi|[ki Ki]]; destruct (A j Hj) as [Pj|[kj Kj]].
  - congruence.
  - destruct (X j kj Kj i Hi Pi).
  - destruct (X i ki Ki j Hj Pj).
  - assert (ki = kj) by (apply (att_unique (phases s)); auto; [rewrite Ki | rewrite Kj]; auto).
    unfold aok in *. congruence.
Qed.

Lemma inv_live_le1 s : Inv s -> live_connections s <= 1.
Proof.
  intros I. unfold live_connections. rewrite <- (count_map (fun b => b) conn_live). 
  apply count_unique with (d := false). intros i j _ _ Hi Hj. eapply live_unique; eauto.
Qed.

Lemma live_is_held sc ops c :
  let s := run ops (init sc) in conn_live (getc s c) = true ->
  protocol s = Some c \/ exists k, ph (getk s k) = PAttempt (AOk c).
Proof.
  intros s H. destruct (reach_inv sc ops) as [_ (A & _)]. fold s in A. rewrite live_getc in H.
  destruct (A c H) as [P|[k K]]; auto. right. exists k. rewrite getk_ph. exact K.
Qed.

Lemma failure_reaches_owner_only sc ops k :
  let s := run ops (init sc) in ph (getk s k) = PEnd (RExn EOSError) -> In k (fails s).
Proof.
  intros s H. apply (run_closed (fun s => fail_ok (phases s) (fails s))) with (ops := ops) (s := init sc).
  - intros s0 o. exact (vstep_fail _ _ _ (step_vstep s0 o)).
  - intros [|j]; discriminate.
  - rewrite <- getk_ph. fold s. rewrite H. reflexivity.
Qed.

(* `step s (Run k)` is one branch of run_caller, chosen by k's record, run on `deq (IRun k) s`; that state differs
   from s in the ready queue only, so what is known of `getk s k` selects the branch *)
Ltac run_caller_at k s := simpl; unfold run_caller; cbv zeta; change (getk (deq (IRun k) s) k) with (getk s k).

Lemma failed_attempt_step s k :
  ph (getk s k) = PAttempt AFail -> cancelp (getk s k) = false ->
  let s' := step s (Run k) in
  ph (getk s' k) = PEnd (RExn EOSError) /\ locked s' = false /\ waiters s' = woken_first (waiters s) /\
  (forall j, j <> k -> getk s' j = getk s j) /\ creates s' = creates s /\ protocol s' = protocol s.
Proof.
  intros E C. run_caller_at k s. rewrite E, C.
  unfold finish_fail. match goal with |- context [release ?t] => destruct (release_rq t) as [q ->] end.
  repeat split; auto.
  - unfold endc, setph, updk, getk. simpl callers. rewrite nth_upd_same. reflexivity. apply getk_lt. rewrite E. discriminate.
  - intros j Hj. apply nth_upd_other. auto.
Qed.

Lemma locked_section_creates k s : locked s = true ->
  creates (locked_section k s) = if connected s then creates s else S (creates s).
Proof.
  intros L. rewrite connected_lives. change (creates (locked_section k s)) with (vC (view_of (locked_section k s))).
  destruct (locked_section_outcome k s L) as [v H| v H|H|o H]; simpl; rewrite H; auto.
Qed.

Lemma next_holder_retries s k :
  ph (getk s k) = PWait -> cancelp (getk s k) = false -> wlookup k (waiters s) = Some WWoken ->
  connected s = false -> creates (step s (Run k)) = S (creates s).
Proof.
  intros E C W Cn. run_caller_at k s. rewrite E, C.
  change (waiters (deq (IRun k) s)) with (waiters s). rewrite W. simpl is_wwoken. cbv iota.
  rewrite locked_section_creates by reflexivity.
  change (connected _) with (connected s). rewrite Cn. reflexivity.
Qed.

(* the connection made by k's own finished attempt is still alive when k's task resumes *)
Definition own_conn_alive (s : state) (k : nat) : Prop :=
  forall c, ph (getk s k) = PAttempt (AOk c) -> conn_live (getc s c) = true.
(* what __connect__ handed to k in this step (if it returned) is alive at this instant, and k did not
   die of AttributeError on a dead protocol *)
Definition good_ret (s' : state) (k : nat) : Prop :=
  match ph (getk s' k) with
  | PGot c _ | PReg c => conn_live (getc s' c) = true
  | PEnd (RExn EAttr) => False
  | _ => True
  end.

Lemma good_ret_view s k : good (nth k (phases s) dph) (lives s) -> good_ret s k.
Proof. unfold good_ret. rewrite getk_ph. destruct (nth k (phases s) dph); simpl; rewrite ?live_getc; auto. Qed.

Lemma ret_shares k s : connected s = true -> ph (getk s k) <> dph ->
  creates (ret k s) = creates s /\ locked (ret k s) = locked s /\ exists c, protocol s = Some c /\
    (ph (getk (ret k s) k) = PGot c false \/ ph (getk (ret k s) k) = PReg c) /\ conn_live (getc (ret k s) c) = true.
Proof.
  intros Cn Kl. destruct (ret_view k s) as (v & [= HP _ HL _ HV _ HC] & Hv & Gv). specialize (Gv Cn).
  split; auto. split; auto. rewrite getk_ph in *. rewrite HP, nth_upd_same by (apply nth_lt in Kl; exact Kl).
  destruct Hv as [->|(c & E & H)]. destruct Gv. exists c. rewrite live_getc, HV. destruct H as [->| ->]; auto.
Qed.

Lemma shared_connection_fast s k :
  connected s = true -> ph (getk s k) = PNew -> cancelp (getk s k) = false ->
  let s' := step s (Run k) in
  creates s' = creates s /\ exists c, protocol s = Some c /\
    (ph (getk s' k) = PGot c false \/ ph (getk s' k) = PReg c) /\ conn_live (getc s' c) = true.
Proof.
  intros Cn E C. run_caller_at k s. rewrite E, C.
  unfold enter. change (connected (deq (IRun k) s)) with (connected s). rewrite Cn.
  destruct (ret_shares k (deq (IRun k) s) Cn) as (A & _ & B); auto. change (ph (getk s k) <> dph). rewrite E. discriminate.
Qed.

Lemma shared_connection_waiter s k :
  connected s = true -> ph (getk s k) = PWait -> cancelp (getk s k) = false ->
  wlookup k (waiters s) = Some WWoken ->
  let s' := step s (Run k) in
  creates s' = creates s /\ locked s' = false /\ exists c, protocol s = Some c /\
    (ph (getk s' k) = PGot c false \/ ph (getk s' k) = PReg c) /\ conn_live (getc s' c) = true.
Proof.
  intros Cn E C W. run_caller_at k s. rewrite E, C.
  change (waiters (deq (IRun k) s)) with (waiters s). rewrite W. simpl is_wwoken. cbv iota.
  unfold locked_section. cbv zeta. change (connected (set_chst Connecting _)) with (connected s). rewrite Cn.
  simpl negb. cbv iota. match goal with |- context [release ?t] => destruct (release_rq t) as [q ->] end.
  match goal with |- context [ret k ?t] => apply (ret_shares k t Cn) end. change (ph (getk s k) <> dph). rewrite E. discriminate.
Qed.

Lemma getk_mark a f s j : getk (mark a f s) j = getk (f s) j.
Proof. destruct (mark_rq a f s) as [q ->]. reflexivity. Qed.

(* one round of processor.close() on c: a call registered on c stays registered, stays terminated once
   terminated, and is terminated when it is the stream looked at *)
Lemma terminate1_spec c s a k : ph (getk s k) = PReg c ->
  ph (getk (terminate1 c s a) k) = PReg c /\
  (a = k \/ term (getk s k) = true -> term (getk (terminate1 c s a) k) = true).
Proof.
  intros E. unfold terminate1. destruct (Nat.eq_dec a k) as [->|D].
  - rewrite E, Nat.eqb_refl. destruct (term (getk s k)) eqn:T; simpl; auto.
    rewrite getk_mark. unfold getk, updk. simpl callers.
    rewrite nth_upd_same by (apply getk_lt; rewrite E; discriminate). split; auto.
  - assert (X : getk (mark a (updk a (c_term true)) s) k = getk s k).
    { rewrite getk_mark. apply nth_upd_other. exact D. }
    destruct (ph (getk s a)); try tauto. destruct (_ && _); rewrite ?X; tauto.
Qed.

Lemma terminate_hits c s k : In k (calls (getc s c)) -> ph (getk s k) = PReg c ->
  term (getk (terminate c s) k) = true /\ ph (getk (terminate c s) k) = PReg c.
Proof.
  unfold terminate. generalize (calls (getc s c)). intros l H E.
  assert (G : In k l \/ term (getk s k) = true) by auto. clear H.
  revert s E G. induction l as [|a l]; simpl; intros s E G.
  - destruct G as [[]|G]. auto.
  - destruct (terminate1_spec c s a k E) as [E' T]. apply IHl; auto. destruct G as [[->|G]|G]; auto.
Qed.

Lemma calls_updc c f s : (forall x, calls (f x) = calls x) -> calls (getc (updc c f s) c) = calls (getc s c).
Proof. intros H. unfold getc. simpl conns. rewrite nth_upd. destruct (_ && _); auto. Qed.

Lemma proc_close_terminates c s k : In k (calls (getc s c)) -> ph (getk s k) = PReg c ->
  term (getk (proc_close c s) k) = true /\ ph (getk (proc_close c s) k) = PReg c.
Proof.
  intros H E. destruct (proc_close_eq c s) as [q ->]. apply terminate_hits; auto. rewrite calls_updc; auto.
Qed.

Lemma terminated_call_ends s k c : ph (getk s k) = PReg c -> term (getk s k) = true ->
  ph (getk (step s (Run k)) k) = PEnd (RExn ETerminated).
Proof.
  intros E T. run_caller_at k s. rewrite E, T.
  unfold endc, setph, updk, getk. simpl callers. rewrite nth_upd_same. reflexivity. apply getk_lt. rewrite E. discriminate.
Qed.

Lemma close_cancels_registered s c k :
  protocol s = Some c -> In k (calls (getc s c)) -> ph (getk s k) = PReg c ->
  let s' := step s ChClose in
  protocol s' = None /\ term (getk s' k) = true /\ ph (getk s' k) = PReg c /\
  ph (getk (step s' (Run k)) k) = PEnd (RExn ETerminated).
Proof.
  intros P H E. destruct (proc_close_terminates c s k H E) as [A B].
  assert (X : protocol (step s ChClose) = None /\ term (getk (step s ChClose) k) = true /\
              ph (getk (step s ChClose) k) = PReg c) by (simpl; rewrite P; auto).
  destruct X as (X & Y & Z). repeat split; auto. eapply terminated_call_ends; eauto.
Qed.

Lemma loss_cancels_registered s c k :
  delivered (getc s c) = false -> In k (calls (getc s c)) -> ph (getk s k) = PReg c ->
  term (getk (step s (Lose c)) k) = true /\ ph (getk (step s (Lose c)) k) = PReg c.
Proof.
  intros D H E. simpl. unfold conn_lost. cbv zeta.
  change (getc (deq (ILost c) s) c) with (getc s c). rewrite D.
  destruct (Nat.ltb_spec c (length (conns (deq (ILost c) s)))) as [|L].
  - apply terminate_hits; auto. rewrite calls_updc; auto.
  - unfold getc in H. rewrite nth_overflow in H. destruct H. exact L.
Qed.

(* no call is inside Channel.__connect__ *)
Definition quiet (s : state) : Prop :=
  waiters s = [] /\ locked s = false /\ forall k, connect_phase (ph (getk s k)) = false.

(* a new call finds the channel unconnected and the lock free; its attempt does not finish at once *)
Lemma run_new_deferred k o s :
  ph (getk s k) = PNew -> cancelp (getk s k) = false -> connected s = false -> lock_free s = true ->
  hd (OOk, false) (script s) = (o, false) ->
  step s (Run k) = setph k (PAttempt (AFlight o)) (set_creates (S (creates s)) (set_script (tl (script s))
                     (set_chst Connecting (set_locked true (deq (IRun k) s))))).
Proof.
  intros E C Cn LF Sc. run_caller_at k s. rewrite E, C.
  unfold enter. change (connected (deq (IRun k) s)) with (connected s).
  change (lock_free (deq (IRun k) s)) with (lock_free s). rewrite Cn, LF. unfold locked_section. cbv zeta.
  change (connected (set_chst Connecting _)) with (connected s). rewrite Cn. simpl negb. cbv iota.
  unfold attempt. change (script (set_chst Connecting _)) with (script s). rewrite Sc. reflexivity.
Qed.

(* the owner of a finished attempt resumes: the connection is stored, the lock released, the call registered *)
Lemma run_owner k c s :
  ph (getk s k) = PAttempt (AOk c) -> cancelp (getk s k) = false ->
  closing (getc s c) = false -> paused (getc s c) = false ->
  exists q, step s (Run k) = set_rq q (register k c (set_waiters (woken_first (waiters s))
                               (set_locked false (set_chst Ready (set_protocol (Some c) s))))).
Proof.
  intros E C Cl Pa. run_caller_at k s. rewrite E, C.
  unfold finish_ok. match goal with |- context [release ?t] => destruct (release_rq t) as [q ->] end.
  unfold ret. simpl protocol. cbv iota. unfold proceed. cbv zeta.
  match goal with |- context [closing (getc ?t c)] => change (getc t c) with (getc s c) end.
  rewrite Cl, Pa. exists q. reflexivity.
Qed.

Lemma fresh_call s : quiet s -> connected s = false -> hd (OOk, false) (script s) = (OOk, false) ->
  let n := length (callers s) in let c := length (conns s) in
  exists q, run [Start; Run n; Resolve n; Run n] s =
    {| protocol := Some c; conns := conns s ++ [n_calls [n] fresh_conn]; locked := false; waiters := [];
       callers := callers s ++ [c_ph (PReg c) new_caller]; script := tl (script s); creates := S (creates s);
       fails := fails s; chst := Ready; rq := q |}.
Proof.
  intros (QW & QL & _) Cn Sc n c.
  change (run _ s) with (step (step (step (step s Start) (Run n)) (Resolve n)) (Run n)).
  set (s1 := step s Start).
  assert (G1 : getk s1 n = new_caller) by apply nth_app_new.
  rewrite (run_new_deferred n OOk s1); try (rewrite G1; reflexivity); auto.
  2: { unfold lock_free. simpl. rewrite QL, QW. reflexivity. }
  match goal with |- context [step ?t (Resolve n)] => set (s2 := t) end.
  assert (G2 : getk s2 n = c_ph (PAttempt (AFlight OOk)) new_caller).
  { unfold getk. simpl. unfold n. rewrite upd_app_new. apply nth_app_new. }
  simpl (step s2 (Resolve n)). rewrite G2. simpl ph. cbv iota. unfold new_conn.
  match goal with |- context [step ?t (Run n)] => set (s3 := t) end.
  assert (G3 : getk s3 n = c_ph (PAttempt (AOk c)) (c_ph (PAttempt (AFlight OOk)) new_caller)).
  { unfold getk. simpl. unfold n. rewrite !upd_app_new. apply nth_app_new. }
  assert (C3 : getc s3 c = fresh_conn) by apply nth_app_new.
  destruct (run_owner n c s3) as [q ->]; try (rewrite ?G3, ?C3; reflexivity).
  exists q. unfold register, setph, updk, updc. simpl. unfold n, c.
  rewrite !upd_app_new, QW. reflexivity.
Qed.

Lemma fresh_call_connects s :
  Inv s -> quiet s -> connected s = false -> hd (OOk, false) (script s) = (OOk, false) ->
  let n := length (callers s) in let c := length (conns s) in
  let s' := run [Start; Run n; Resolve n; Run n] s in
  creates s' = S (creates s) /\ protocol s' = Some c /\ ph (getk s' n) = PReg c /\
  conn_live (getc s' c) = true /\ live_connections s' = 1 /\ locked s' = false /\
  In n (calls (getc s' c)) /\ getk s' n = c_ph (PReg c) new_caller /\ getc s' c = n_calls [n] fresh_conn /\
  length (callers s') = S n /\ length (conns s') = S c.
Proof.
  intros I Q Cn Sc n c s'. assert (Le : live_connections s' <= 1) by apply inv_live_le1, (run_closed Inv step_inv), I.
  destruct (fresh_call s Q Cn Sc) as [q E]. unfold s', n, c in *. rewrite E in *. clear E.
  unfold live_connections, getk, getc in *. simpl in *. rewrite count_app in *.
  rewrite !nth_app_new, !app_length. unfold count in *. simpl in *. repeat split; auto; lia.
Qed.

Lemma answered_call_completes s k c :
  ph (getk s k) = PReg c -> answered (getk s k) = false -> term (getk s k) = false -> cancelp (getk s k) = false ->
  valid_open s c = true ->
  let s' := step (step s (Answer k)) (Run k) in
  ph (getk s' k) = PEnd (ROk c) /\ creates s' = creates s /\ protocol s' = protocol s /\ lives s' = lives s.
Proof.
  intros E A T C V. assert (Kl : k < length (callers s)) by (apply getk_lt; rewrite E; discriminate).
  cbv zeta. simpl (step s (Answer k)). rewrite E, V, A. simpl andb. cbv iota.
  destruct (mark_rq k (updk k (c_answered true)) s) as [q ->].
  simpl. unfold run_caller. cbv zeta.
  match goal with |- context [getk ?t k] => assert (G : getk t k = c_answered true (getk s k)) by (apply nth_upd_same; exact Kl) end.
  rewrite G. simpl. rewrite E, T, C. split.
  - unfold endc, setph, updk, getk. simpl callers. rewrite nth_upd_same. reflexivity. rewrite upd_length. exact Kl.
  - repeat split. match goal with |- lives (endc _ _ (updc ?c ?f ?t)) = _ => apply (lives_updc c f t) end. intros []; reflexivity.
Qed.

Lemma chclose_quiet s : quiet s -> quiet (step s ChClose) /\ connected (step s ChClose) = false /\
  script (step s ChClose) = script s /\ length (callers (step s ChClose)) = length (callers s) /\
  length (conns (step s ChClose)) = length (conns s) /\ creates (step s ChClose) = creates s.
Proof.
  intros (QW & QL & QP). simpl. destruct (protocol s) as [c|] eqn:Pr.
  - destruct (proc_close_eq c s) as [q ->]. set (t := updc c _ (set_rq q s)).
    pose proof (terminate_view c t) as [= HP HW HL _ HV HF HC].
    unfold quiet, connected. simpl. rewrite HW, HL, HC, (terminate_inv script); auto. repeat split; auto.
    + intros k. rewrite getk_ph. change (phases (set_chst _ (set_protocol _ ?x))) with (phases x). rewrite HP, <- getk_ph. exact (QP k).
    + rewrite <- !(map_length ph). exact (f_equal (@length _) HP).
    + rewrite <- !lives_length, HV. unfold lives, t. simpl. rewrite !map_length. apply upd_length.
  - unfold quiet, connected. simpl. rewrite Pr. repeat split; auto.
Qed.

Lemma fresh_call_completes s :
  quiet s -> connected s = false -> hd (OOk, false) (script s) = (OOk, false) ->
  let n := length (callers s) in let c := length (conns s) in
  let s' := run ([Start; Run n; Resolve n; Run n] ++ [Answer n; Run n]) s in
  creates s' = S (creates s) /\ protocol s' = Some c /\ ph (getk s' n) = PEnd (ROk c) /\
  conn_live (getc s' c) = true.
Proof.
  intros Q Cn Sc. cbv zeta. rewrite run_app. destruct (fresh_call s Q Cn Sc) as [q ->].
  set (n := length (callers s)). set (c := length (conns s)).
  match goal with |- context [run _ ?t] => set (t0 := t);
    assert (G : getk t0 n = c_ph (PReg c) new_caller) by apply nth_app_new;
    assert (Gc : getc t0 c = n_calls [n] fresh_conn) by apply nth_app_new end.
  destruct (answered_call_completes t0 n c) as (A & B & C & D); try (rewrite G; reflexivity).
  { unfold valid_open. rewrite Gc. simpl conns. rewrite app_length. simpl.
    replace (Nat.ltb c (length (conns s) + 1)) with true; auto. symmetry. apply Nat.ltb_lt. unfold c. lia. }
  change (run [Answer n; Run n] t0) with (step (step t0 (Answer n)) (Run n)).
  rewrite A, B, C, live_getc, D, <- live_getc, Gc. auto.
Qed.

Lemma drain_is_run fuel s : snd (drain fuel s) = run (fst (drain fuel s)) s.
Proof.
  revert s; induction fuel; intros s; simpl; auto.
  destruct (rq s) as [|i r]; simpl; auto.
  specialize (IHfuel (step s (item_op i))). destruct (drain fuel (step s (item_op i))) as [l s'].
  exact IHfuel.
Qed.

Lemma apply_stims_is_run b : forall acc,
  let r := fold_left (fun acc t => let ops := stim_ops (snd acc) t in (fst acc ++ ops, run ops (snd acc))) b acc in
  exists ops, fst r = fst acc ++ ops /\ snd r = run ops (snd acc).
Proof.
  induction b as [|t b]; intros [l s]; simpl.
  - exists []. rewrite app_nil_r. auto.
  - destruct (IHb (l ++ stim_ops s t, run (stim_ops s t) s)) as (ops & E1 & E2).
    simpl in E1, E2. exists (stim_ops s t ++ ops). rewrite E1, E2, app_assoc, run_app. auto.
Qed.

Lemma batch_is_run s b : snd (batch s b) = run (fst (batch s b)) s.
Proof.
  (* the fuel as a variable: searching the goal for a subterm walks through the numeral 4000 otherwise *)
  unfold batch, apply_stims. generalize 4000. intros fuel.
  destruct (apply_stims_is_run b ([], s)) as (ops & E1 & E2).
  destruct (fold_left _ b ([], s)) as [l1 s1]. simpl in E1, E2. subst.
  pose proof (drain_is_run fuel (run ops s)) as D. destruct (drain fuel (run ops s)) as [l2 s2].
  simpl in *. rewrite D. symmetry. apply run_app.
Qed.
