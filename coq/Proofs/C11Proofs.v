(* C11 -- lemmas about Model/Mux.v: the registry is a product of per-call components. *)
From Coq Require Import ZArith List Bool Lia ZifyBool.
From GV Require Import Model.Mux.
Import ListNotations.
Open Scope Z_scope.

Lemma lookup_put : forall i j c r, lookup i (put j c r) = if j =? i then Some c else lookup i r.
Proof.
  intros i j c r. induction r as [|[k c'] t IH]; cbn [put lookup].
  - destruct (j =? i); reflexivity.
  - destruct (k =? j) eqn:E; cbn [lookup].
    + destruct (j =? i) eqn:E1, (k =? i) eqn:E2; try reflexivity; lia.
    + rewrite IH. destruct (j =? i) eqn:E1, (k =? i) eqn:E2; try reflexivity; lia.
Qed.

Lemma lookup_remove : forall i j r, lookup i (remove j r) = if j =? i then None else lookup i r.
Proof.
  intros i j r. induction r as [|[k c'] t IH]; cbn [remove filter lookup fst].
  - destruct (j =? i); reflexivity.
  - fold (remove j t). destruct (k =? j) eqn:E; cbn [negb lookup]; rewrite IH;
      destruct (j =? i) eqn:E1, (k =? i) eqn:E2; try reflexivity; lia.
Qed.

Lemma lookup_set_opt : forall i j oc r, lookup i (set_opt j oc r) = if j =? i then oc else lookup i r.
Proof. intros i j [c|] r; [apply lookup_put | apply lookup_remove]. Qed.

Lemma lookup_map_calls : forall f i r, lookup i (map_calls f r) = option_map f (lookup i r).
Proof.
  intros f i r. induction r as [|[k c] t IH]; cbn [map_calls map lookup fst snd]; [reflexivity|].
  destruct (k =? i); [reflexivity | exact IH].
Qed.

Lemma map_calls_id : forall f r, (forall c, f c = c) -> map_calls f r = r.
Proof.
  intros f r H. induction r as [|[k c] t IH]; cbn [map_calls map fst snd]; [reflexivity|].
  rewrite H. unfold map_calls in IH. rewrite IH. reflexivity.
Qed.

Definition keys (r : registry) : list sid := map fst r.

Lemma keys_map_calls : forall f r, keys (map_calls f r) = keys r.
Proof. intros f r. apply map_map. Qed.

Lemma keys_remove : forall i r, keys (remove i r) = filter (fun k => negb (k =? i)) (keys r).
Proof.
  intros i r. induction r as [|[k c] t IH]; cbn [remove filter keys map fst]; [reflexivity|].
  destruct (negb (k =? i)); cbn [map fst]; [f_equal|]; exact IH.
Qed.

Lemma in_keys_put : forall k i c r, In k (keys (put i c r)) -> k = i \/ In k (keys r).
Proof.
  intros k i c r. induction r as [|[k' c'] t IH]; cbn [put keys map fst In].
  - intros [H|[]]; left; congruence.
  - destruct (k' =? i) eqn:E; cbn [map fst In].
    + apply Z.eqb_eq in E; subst. intros [H|H]; [left; congruence | right; right; exact H].
    + intros [H|H]; [right; left; exact H|]. destruct (IH H); [left|right; right]; assumption.
Qed.

Lemma nodup_put : forall i c r, NoDup (keys r) -> NoDup (keys (put i c r)).
Proof.
  intros i c r. induction r as [|[k' c'] t IH]; cbn [put keys map fst]; intro H.
  - constructor; [intros []|constructor].
  - destruct (k' =? i) eqn:E; cbn [map fst].
    + apply Z.eqb_eq in E; subst. exact H.
    + inversion H as [|? ? Hn Hd]; subst. constructor; [|exact (IH Hd)].
      intro Hin. destruct (in_keys_put _ _ _ _ Hin) as [->|Hin']; [lia | exact (Hn Hin')].
Qed.

Lemma step_keeps_keys_distinct : forall s e, NoDup (keys (st_reg s)) -> NoDup (keys (st_reg (step s e))).
Proof.
  intros s e H. unfold step, step_r. destruct (addr e) as [i|]; cbn [s_state st_reg].
  - destruct (r_call _); cbn [set_opt]; [apply nodup_put, H|].
    rewrite keys_remove. apply NoDup_filter, H.
  - rewrite keys_map_calls. exact H.
Qed.

(* What one step does to component i.  Everything below about calls goes through this function: each
   component reacts to the events addressed to it and to those of the connection, and the reaction
   reads nothing of the state but the connection. *)
Definition react (cn : conn) (i : sid) (e : event) (oc : option call) : option call :=
  match addr e with
  | Some j => if j =? i then r_call (call_step cn i oc e) else oc
  | None => option_map (bcast cn e) oc
  end.

Lemma project_step : forall s e i, project i (step s e) = react (st_conn s) i e (project i s).
Proof.
  intros s e i. unfold project, step, step_r, react. destruct (addr e) as [j|]; cbn [s_state st_reg].
  - rewrite lookup_set_opt. destruct (j =? i) eqn:E; [|reflexivity].
    apply Z.eqb_eq in E. subst j. reflexivity.
  - apply lookup_map_calls.
Qed.

Lemma addressed_event_local : forall s e j i,
  addr e = Some j -> i <> j -> project i (step s e) = project i s.
Proof.
  intros s e j i Ha Hij. rewrite project_step. unfold react. rewrite Ha.
  destruct (j =? i) eqn:E; [lia | reflexivity].
Qed.

(* of the connection, a reaction reads the side and whether it is closed *)
Lemma react_reads : forall cn cn' i e oc,
  c_side cn = c_side cn' -> c_closed cn = c_closed cn' -> react cn i e oc = react cn' i e oc.
Proof.
  intros [sd cl wr sl] [sd' cl' wr' sl'] i e oc. cbn [c_side c_closed]. intros -> ->. reflexivity.
Qed.

Lemma addressed_not_fatal : forall e j, addr e = Some j -> fatal e = false.
Proof. intros e j Ha. destruct e; try reflexivity; discriminate Ha. Qed.

Lemma st_conn_step : forall s e,
  st_conn (step s e) =
  let cn := st_conn s in
  match addr e with
  | Some j => if r_slot (call_step cn j (project j s) e)
              then mkConn (c_side cn) (c_closed cn) (c_write_ready cn) true else cn
  | None => conn_step cn e
  end.
Proof. intros s e. unfold step, step_r. destruct (addr e); reflexivity. Qed.

(* a stream-addressed event changes at most the stream_close_waiter flag of the connection *)
Lemma local_action_conn : forall s e j,
  addr e = Some j ->
  st_conn (step s e) = st_conn s \/
  st_conn (step s e) = mkConn (c_side (st_conn s)) (c_closed (st_conn s)) (c_write_ready (st_conn s)) true.
Proof.
  intros s e j Ha. rewrite st_conn_step, Ha. cbn zeta. destruct (r_slot _); [right|left]; reflexivity.
Qed.

Lemma addressed_event_core : forall s e j,
  addr e = Some j -> conn_core (st_conn (step s e)) = conn_core (st_conn s).
Proof. intros s e j Ha. destruct (local_action_conn s e j Ha) as [->| ->]; reflexivity. Qed.

Definition is_request (e : event) : bool := match e with ERequest _ _ => true | _ => false end.

(* the one peer frame that touches a connection-level flag: HEADERS opening a stream towards a client
   are refused and released at once, and release_stream sets stream_close_waiter *)
Lemma h2_event_no_slot : forall cn i oc e,
  is_h2 e = true -> c_side cn = Server \/ is_request e = false ->
  r_slot (call_step cn i oc e) = false.
Proof.
  intros cn i oc e H Hq. unfold call_step. destruct (is_h2 e && c_closed cn); [reflexivity|].
  destruct e; try discriminate H; try (destruct oc; reflexivity).
  - (* ERequest *) destruct Hq as [-> | Hq]; [reflexivity | discriminate Hq].
  - (* EReset *) destruct oc as [c|], (c_side cn); try reflexivity. destruct (cs_in_tasks _); reflexivity.
Qed.

Lemma conn_step_fields : forall cn e,
  c_side (conn_step cn e) = c_side cn /\
  c_closed (conn_step cn e) = c_closed cn || fatal e /\
  c_write_ready (conn_step cn e) =
    match e with EPause => false | EResume => true | _ => c_write_ready cn end.
Proof.
  intros [sd cl wr sl] e. unfold conn_step. cbn [c_side c_closed c_write_ready c_slot_wake].
  destruct e, cl; try destruct max_streams; repeat split; reflexivity.
Qed.

Lemma step_side_closed : forall s e,
  c_side (st_conn (step s e)) = c_side (st_conn s) /\
  c_closed (st_conn (step s e)) = c_closed (st_conn s) || fatal e.
Proof.
  intros s e. destruct (addr e) as [j|] eqn:Ha.
  - rewrite (addressed_not_fatal e j Ha), orb_false_r.
    destruct (local_action_conn s e j Ha) as [->| ->]; split; reflexivity.
  - rewrite st_conn_step, Ha. cbn zeta.
    destruct (conn_step_fields (st_conn s) e) as (Hs & Hc & _). split; assumption.
Qed.

Lemma run_keeps_side : forall es s, c_side (st_conn (run es s)) = c_side (st_conn s).
Proof.
  induction es as [|e t IH]; intro s; cbn [run]; [reflexivity|]. rewrite IH. apply step_side_closed.
Qed.

Lemma bcast_flags_only : forall cn e c,
  fatal e = false -> bcast cn e c = c \/ bcast cn e c = set_wu true c.
Proof.
  intros cn e c Hf. unfold bcast. destruct (is_h2 e && c_closed cn); [left; reflexivity|].
  destruct e; try discriminate Hf; try (left; reflexivity); try (right; reflexivity).
  destruct initial_window; [right|left]; reflexivity.
Qed.

(* an event that call i cannot see, except in its wake-up flag *)
Definition foreign (i : sid) (e : event) : Prop := addr e <> Some i /\ fatal e = false.

Lemma foreign_event_strip : forall s e i,
  foreign i e -> option_map strip (project i (step s e)) = option_map strip (project i s).
Proof.
  intros s e i [Ha Hf]. rewrite project_step. unfold react. destruct (addr e) as [j|].
  - destruct (j =? i) eqn:E; [|reflexivity]. apply Z.eqb_eq in E. congruence.
  - destruct (project i s) as [c|]; [|reflexivity]. cbn [option_map].
    destruct (bcast_flags_only (st_conn s) e c Hf) as [->| ->]; reflexivity.
Qed.

(* The reaction of a call does not read its window flag: with the record opened, the two sides are the
   same record once the few tests on which an event's branch depends are decided. *)
Lemma call_step_blind : forall cn i c e,
  option_map strip (r_call (call_step cn i (Some (strip c)) e)) =
  option_map strip (r_call (call_step cn i (Some c) e)).
Proof.
  intros cn i [rq hd q eof tl wu hr tr w er it n] e. unfold call_step.
  destruct (is_h2 e && c_closed cn); [reflexivity|].
  destruct e; try reflexivity.
  - (* EData *) destruct (fcl =? 0); reflexivity.
  - (* EReset *) destruct (c_side cn), w, it; reflexivity.
  - (* ADeadline *) destruct (c_side cn), w; reflexivity.
  - (* ARead *) destruct q as [|[]]; reflexivity.
Qed.

Lemma bcast_blind : forall cn e c, strip (bcast cn e (strip c)) = strip (bcast cn e c).
Proof.
  intros cn e [rq hd q eof tl wu hr tr w er it n]. unfold bcast.
  destruct (is_h2 e && c_closed cn); [reflexivity|].
  destruct e; try reflexivity; try destruct initial_window (* ESettings *);
    destruct (c_side cn), w, it (* the four that close the connection *); reflexivity.
Qed.

Lemma react_strip : forall cn i e oc oc',
  option_map strip oc = option_map strip oc' ->
  option_map strip (react cn i e oc) = option_map strip (react cn i e oc').
Proof.
  intros cn i e [c|] [c'|] H; try discriminate H; [|reflexivity].
  cbn [option_map] in H. assert (Hs : strip c = strip c') by congruence. clear H.
  unfold react. destruct (addr e) as [j|]; [destruct (j =? i)|]; cbn [option_map].
  - rewrite <- (call_step_blind cn i c), <- (call_step_blind cn i c'), Hs. reflexivity.
  - rewrite Hs. reflexivity.
  - rewrite <- (bcast_blind cn e c), <- (bcast_blind cn e c'), Hs. reflexivity.
Qed.

(* the fatal events are exactly those that reach a call they are not addressed to; one registered
   client call is witness enough *)
Lemma fatal_exactly : forall e,
  fatal e = true <->
  exists s i, addr e <> Some i /\
              option_map strip (project i (step s e)) <> option_map strip (project i s).
Proof.
  intro e. split.
  - intro Hf. exists (mkState [(1, new_call None true false)] (mkConn Client false true false)), 1.
    destruct e; try discriminate Hf; (split; [discriminate | cbn; discriminate]).
  - intros (s & i & Ha & Hne). destruct (fatal e) eqn:Hf; [reflexivity|].
    destruct Hne. apply foreign_event_strip. split; assumption.
Qed.

Section MergeDef.
  Context {A : Type}.

  Inductive Pick : list (list A) -> A -> list (list A) -> Prop :=
  | Pick_here : forall a l ls, Pick ((a :: l) :: ls) a (l :: ls)
  | Pick_next : forall a l ls ls', Pick ls a ls' -> Pick (l :: ls) a (l :: ls').

  (* es is an interleaving of the strands ls: every strand keeps its own order *)
  Inductive Merge : list (list A) -> list A -> Prop :=
  | Merge_nil : forall ls, Forall (fun l => l = []) ls -> Merge ls []
  | Merge_cons : forall ls a ls' es, Pick ls a ls' -> Merge ls' es -> Merge ls (a :: es).

  Lemma Pick_nth : forall ls a ls', Pick ls a ls' ->
    exists k l, nth k ls [] = a :: l /\ nth k ls' [] = l /\
                forall k', k' <> k -> nth k' ls' [] = nth k' ls [].
  Proof.
    induction 1 as [a l ls | a l ls ls' HP (k & l0 & H1 & H2 & H3)].
    - exists 0%nat, l. repeat split. intros [|k'] Hk; [congruence | reflexivity].
    - exists (S k), l0. repeat split; try assumption.
      intros [|k'] Hk; [reflexivity|]. cbn. apply H3. congruence.
  Qed.

  Lemma Pick_incl : forall ls a ls', Pick ls a ls' -> forall k x, In x (nth k ls' []) -> In x (nth k ls []).
  Proof. induction 1 as [a l ls | a l ls ls' _ IH]; intros [|k] x; cbn; auto. Qed.

  Lemma all_nil_nth : forall (ls : list (list A)) k, Forall (fun l => l = []) ls -> nth k ls [] = [].
  Proof.
    intros ls k H. revert k. induction H as [|l ls Hl _ IH]; intros [|k]; cbn; auto.
  Qed.
End MergeDef.

Lemma run_app : forall es1 es2 s, run (es1 ++ es2) s = run es2 (run es1 s).
Proof. induction es1 as [|e t IH]; intros; cbn [app run]; [reflexivity | apply IH]. Qed.

(* A relation between two runs that every common step preserves, and that survives one side alone taking
   a step of a kind [skip]: then the skipped events can be taken out of a history, wherever they stand. *)
Record simulation (R : state -> state -> Prop) (skip : event -> Prop) : Prop := {
  R_step : forall s s' e, R s s' -> R (step s e) (step s' e);
  R_skip : forall s s' e, skip e -> R s s' -> R (step s e) s' }.

Section Simulation.
  Context {R : state -> state -> Prop} {skip : event -> Prop} (S : simulation R skip).

  Lemma simulation_run : forall es s s', R s s' -> R (run es s) (run es s').
  Proof. induction es as [|e t IH]; intros s s' H; cbn [run]; [exact H | apply IH, (R_step _ _ S), H]. Qed.

  Lemma simulation_filter : forall keep es s s',
    (forall e, In e es -> keep e = false -> skip e) ->
    R s s' -> R (run es s) (run (filter keep es) s').
  Proof.
    intros keep es. induction es as [|e t IH]; intros s s' Hsk H; cbn [run filter]; [exact H|].
    destruct (keep e) eqn:K; cbn [run]; (apply IH; [intros e' He'; apply Hsk; right; exact He'|]).
    - apply (R_step _ _ S), H.
    - apply (R_skip _ _ S); [apply Hsk; [left; reflexivity | exact K] | exact H].
  Qed.

  Lemma simulation_skip : forall fs s s', (forall e, In e fs -> skip e) -> R s s' -> R (run fs s) s'.
  Proof.
    induction fs as [|e t IH]; intros s s' Hsk H; cbn [run]; [exact H|].
    apply IH; [intros e' He'; apply Hsk; right; exact He'|].
    apply (R_skip _ _ S); [apply Hsk; left; reflexivity | exact H].
  Qed.

  Lemma simulation_insert : forall es1 fs es2 s s',
    (forall e, In e fs -> skip e) ->
    R s s' -> R (run (es1 ++ fs ++ es2) s) (run (es1 ++ es2) s').
  Proof.
    intros es1 fs es2 s s' Hsk H. rewrite !run_app.
    apply simulation_run, simulation_skip; [exact Hsk | apply simulation_run, H].
  Qed.

  (* a pick from strand k is a common step, a pick from another strand is skipped *)
  Lemma simulation_merge : forall ls es k,
    Merge ls es ->
    (forall k' e, k' <> k -> In e (nth k' ls []) -> skip e) ->
    forall s s', R s s' -> R (run es s) (run (nth k ls []) s').
  Proof.
    intros ls es k HM. induction HM as [ls Hn | ls a ls' es HP HM IH]; intros Hsk s s' H.
    - rewrite (all_nil_nth ls k Hn). exact H.
    - assert (Hsk' : forall k' e, k' <> k -> In e (nth k' ls' []) -> skip e)
        by (intros k' e Hk He; apply (Hsk k' e Hk), (Pick_incl _ _ _ HP), He).
      destruct (Pick_nth _ _ _ HP) as (k0 & l & H1 & H2 & H3). cbn [run].
      destruct (Nat.eq_dec k k0) as [->|Hne].
      + rewrite H1. cbn [run]. rewrite <- H2. apply (IH Hsk'), (R_step _ _ S), H.
      + rewrite <- (H3 k Hne). apply (IH Hsk'), (R_skip _ _ S); [|exact H].
        apply (Hsk k0 a); [congruence|]. rewrite H1. left. reflexivity.
  Qed.
End Simulation.

(* call i alone, exactly: the events of the other calls can be taken out *)
Definition sim (i : sid) (s s' : state) : Prop :=
  project i s = project i s' /\ conn_core (st_conn s) = conn_core (st_conn s').

Lemma sim_refl : forall i s, sim i s s.
Proof. intros; split; reflexivity. Qed.

Lemma sim_ok : forall i, simulation (sim i) (fun e => relevant i e = false).
Proof.
  intro i. constructor.
  - intros s s' e [Hp Hc]. pose proof Hc as Hc'. unfold conn_core in Hc'. injection Hc' as Hs Hcl Hw.
    split.
    + rewrite !project_step, Hp. apply react_reads; assumption.
    + destruct (addr e) as [j|] eqn:Ha.
      * rewrite !(addressed_event_core _ e j Ha). exact Hc.
      * rewrite !st_conn_step, Ha. unfold conn_core. cbn zeta.
        destruct (conn_step_fields (st_conn s) e) as (-> & -> & ->).
        destruct (conn_step_fields (st_conn s') e) as (-> & -> & ->).
        rewrite Hs, Hcl, Hw. reflexivity.
  - intros s s' e Hr [Hp Hc]. unfold relevant in Hr. destruct (addr e) as [j|] eqn:Ha; [|discriminate].
    split.
    + rewrite (addressed_event_local s e j i Ha) by lia. exact Hp.
    + rewrite (addressed_event_core s e j Ha). exact Hc.
Qed.

(* whatever happens to call j, the others and the connection do not see it *)
Lemma failure_contained : forall es1 fs es2 s j,
  (forall e, In e fs -> addr e = Some j) ->
  conn_core (st_conn (run (es1 ++ fs ++ es2) s)) = conn_core (st_conn (run (es1 ++ es2) s)) /\
  forall i, i <> j -> project i (run (es1 ++ fs ++ es2) s) = project i (run (es1 ++ es2) s).
Proof.
  intros es1 fs es2 s j Hfs.
  assert (H : forall i, i <> j -> sim i (run (es1 ++ fs ++ es2) s) (run (es1 ++ es2) s)).
  { intros i Hij. apply (simulation_insert (sim_ok i)); [|apply sim_refl].
    intros e He. unfold relevant. rewrite (Hfs e He). lia. }
  split; [apply (H (j + 1)); lia | intros i Hij; apply H, Hij].
Qed.

(* call i alone, up to its wake-up flag: the non-fatal events of the connection can be taken out too *)
Definition simw (i : sid) (s s' : state) : Prop :=
  option_map strip (project i s) = option_map strip (project i s') /\
  c_closed (st_conn s) = c_closed (st_conn s') /\ c_side (st_conn s) = c_side (st_conn s').

Lemma simw_refl : forall i s, simw i s s.
Proof. intros; repeat split; reflexivity. Qed.

Lemma simw_ok : forall i, simulation (simw i) (foreign i).
Proof.
  intro i. constructor; unfold simw.
  - intros s s' e (Hp & Hc & Hs).
    destruct (step_side_closed s e) as [-> ->], (step_side_closed s' e) as [-> ->].
    rewrite Hc, Hs. repeat split.
    rewrite !project_step, (react_reads (st_conn s) (st_conn s')) by assumption.
    apply react_strip, Hp.
  - intros s s' e Hf (Hp & Hc & Hs). destruct (step_side_closed s e) as [-> ->].
    rewrite foreign_event_strip by exact Hf. rewrite (proj2 Hf), orb_false_r. repeat split; assumption.
Qed.

Lemma addressed_false : forall i e, addressed i e = false -> addr e <> Some i.
Proof. intros i e H Ha. unfold addressed in H. rewrite Ha, Z.eqb_refl in H. discriminate H. Qed.

Lemma interleaving_projection : forall i es s,
  forallb (fun e => negb (fatal e)) es = true ->
  option_map strip (project i (run es s)) =
  option_map strip (project i (run (filter (addressed i) es) s)).
Proof.
  intros i es s H. rewrite forallb_forall in H.
  apply (simulation_filter (simw_ok i)); [|apply simw_refl].
  intros e He Ha. split; [apply addressed_false, Ha | apply negb_true_iff, H, He].
Qed.

(* events that call i cannot see, anywhere in a history *)
Lemma block_isolation : forall i es1 fs es2 s,
  (forall e, In e fs -> foreign i e) ->
  option_map strip (project i (run (es1 ++ fs ++ es2) s)) =
  option_map strip (project i (run (es1 ++ es2) s)).
Proof.
  intros i es1 fs es2 s H.
  apply (simulation_insert (simw_ok i)); [exact H | apply simw_refl].
Qed.

Lemma strip_set_wu : forall b c, strip (set_wu b c) = strip c.
Proof. reflexivity. Qed.

Lemma spurious_wakeup_noop : forall wr window mf rem c,
  window <= 0 ->
  let '(c', a) := sender_wake wr window mf rem c in
  strip c' = strip c /\ frames_of a = [] /\ (a = SWaitWriteReady \/ a = SWaitWindow).
Proof.
  intros wr window mf rem c Hw. unfold sender_wake.
  destruct wr; cbn [negb].
  - assert (E : (0 <? window) = false) by lia. rewrite E. cbn [negb].
    split; [apply strip_set_wu | split; [reflexivity | right; reflexivity]].
  - split; [reflexivity | split; [reflexivity | left; reflexivity]].
Qed.

Lemma paused_sender_noop : forall window mf rem c,
  sender_wake false window mf rem c = (c, SWaitWriteReady).
Proof. reflexivity. Qed.

Lemma recv_ready_strip : forall c, recv_ready (strip c) = recv_ready c.
Proof. reflexivity. Qed.

(* what a call shows to an observer that does not look at the wake-up flag is not changed by a foreign event *)
Lemma foreign_event_observe : forall {X} (f : call -> X) s e i,
  (forall c, f (strip c) = f c) -> foreign i e ->
  option_map f (project i (step s e)) = option_map f (project i s).
Proof.
  intros X f s e i Hf He.
  assert (E : forall oc, option_map f oc = option_map f (option_map strip oc))
    by (intros [c|]; cbn [option_map]; [rewrite Hf|]; reflexivity).
  rewrite E, foreign_event_strip, <- E by exact He. reflexivity.
Qed.

Lemma in_tasks_terminated : forall sd r c, cs_in_tasks (terminated sd r c) = cs_in_tasks c.
Proof. intros sd r c. unfold terminated. destruct (cs_wrapper c), sd; reflexivity. Qed.

Definition tolerated (e : event) : bool :=
  match e with EPing | EPingAck | EUnknown | EPriority | ESettingsAck => true | _ => false end.

Lemma tolerated_noop : forall s e, tolerated e = true ->
  step_r s e = mkSres s [] false.
Proof.
  intros [reg cn] e H. unfold step_r.
  destruct e; try discriminate H; cbn [addr st_reg st_conn];
    (rewrite map_calls_id;
     [ unfold conn_step; destruct (_ && _); reflexivity
     | intro c; unfold bcast; destruct (_ && _); reflexivity ]).
Qed.

Lemma tolerated_in_batch : forall es1 e es2 s acc, tolerated e = true ->
  run_batch (es1 ++ e :: es2) s acc = run_batch (es1 ++ es2) s acc.
Proof.
  induction es1 as [|a t IH]; intros e es2 s acc H; cbn [app run_batch].
  - rewrite (tolerated_noop s e H). cbn [s_raise s_state s_out]. rewrite app_nil_r. reflexivity.
  - destruct (s_raise (step_r s a)); [reflexivity | apply IH, H].
Qed.

(* no branch of process() lets an exception out (D11, D21 and the KeyError of Handler.cancel on a second
   StreamReset being repaired) *)
Lemma never_raises : forall s e, raises s e = false.
Proof.
  intros s e. unfold raises, step_r. destruct (addr e) as [i|]; cbn [s_raise]; [|reflexivity].
  unfold call_step. destruct (is_h2 e && c_closed (st_conn s)); [reflexivity|].
  destruct e, (lookup i (st_reg s)) as [c|], (c_side (st_conn s)); try reflexivity.
  - (* EReset, server *) destruct (cs_in_tasks _); reflexivity.
  - (* ARead *) destruct (cs_queue c) as [|[]]; reflexivity.
  - destruct (cs_queue c) as [|[]]; reflexivity.
Qed.

Fixpoint no_raise (es : list event) (s : state) : bool :=
  match es with [] => true | e :: t => negb (raises s e) && no_raise t (step s e) end.

Lemma run_batch_is_run : forall es s acc,
  fst (fst (run_batch es s acc)) = run es s /\ snd (run_batch es s acc) = false.
Proof.
  induction es as [|e t IH]; intros s acc; cbn [run_batch run]; [split; reflexivity|].
  rewrite (never_raises s e : s_raise (step_r s e) = false). apply IH.
Qed.

