(* Proofs for Props/C03.v: one server-side call (Model/ServerCall.v).

   The four sending calls are first brought into closed form (what each does as a function of the flags and the
   h2 state it reads).  Two facts are then carried along the handler program: the flags determine where the wire
   monitor stands (inv), and they determine what the frames sent so far say about status and message count (K);
   J is both.  __aexit__ is send_trailing_metadata with the status implicit_status chooses; everything about a
   whole call follows from call_summary. *)
From Coq Require Import String ZArith List Bool Lia.
From GV Require Import Lib.Str Lib.StrFacts Gen.Facts Gen.FactsC03 Model.Base64 Model.Metadata Model.ServerCall
  Gen.FactsC03Probes.
Import ListNotations.
Open Scope Z_scope.

Definition internal_msg : list Z := s2z "Internal Server Error".
(* 'Required "te: trailers" header is missing' *)
Definition te_msg : list Z :=
  [82; 101; 113; 117; 105; 114; 101; 100; 32; 34; 116; 101; 58; 32; 116; 114; 97; 105; 108; 101; 114;
   115; 34; 32; 104; 101; 97; 100; 101; 114; 32; 105; 115; 32; 109; 105; 115; 115; 105; 110; 103].

Theorem aexit_constants :
  aexit_exception = (2, Some internal_msg) /\ aexit_unary_missing = (2, Some internal_msg) /\
  aexit_normal = (0, None) /\ deadline_status_failed = 4 /\ deadline_status_cancelled = 4 /\ status_ok = 0 /\
  aexit_grpc_ok_unary_as_exception = true /\ aexit_base_propagates = true.
Proof. repeat split; reflexivity. Qed.

(* order, guards, HTTP status, grpc-status and message of the early aborts of request_handler *)
Lemma abort_table_is :
  abort_table =
  [ (GetNe (s2z ":method") (s2z "POST"), 405, None, None);
    (IsNone (s2z "content-type"), 415, Some 2, Some (s2z "Missing content-type header"));
    (CtMismatch, 415, Some 2, Some (s2z "Unacceptable content-type header"));
    (GetNe (s2z "te") (s2z "trailers"), 400, Some 2, Some te_msg);
    (UnknownPath, 200, Some 12, Some (s2z "Method not found"));
    (TryValueError (s2z "Deadline.from_headers"), 200, Some 2, Some (s2z "Invalid grpc-timeout header"));
    (TryValueError (s2z "decode_metadata"), 200, Some 2, Some (s2z "Invalid metadata")) ].
Proof. reflexivity. Qed.

(* every early abort is an error response: an HTTP error status, or a non-OK grpc-status *)
Definition error_response (h : Z) (gs : option Z) : bool :=
  negb (h =? 200) || match gs with Some g => negb (g =? status_ok) | None => false end.

(* ... and none carries grpc-status OK beside an HTTP error status *)
Lemma abort_entries_are_errors :
  forallb (fun e : abort_entry => let '(_, h, gs, _) := e in
             error_response h gs && match gs with Some g => negb (g =? status_ok) | None => true end)
          abort_table = true.
Proof. vm_compute. reflexivity. Qed.

Lemma wire_constants :
  grpc_content_type = s2z "application/grpc" /\ proto_subtype = s2z "proto" /\
  content_type_value proto_subtype = s2z "application/grpc+proto" /\
  abort_header_names = [s2z ":status"; s2z "grpc-status"; s2z "grpc-message"].
Proof. repeat split; reflexivity. Qed.

(* our side of the h2 stream can still send *)
Definition open_side (h : h2s) : bool := match h with HOpen | HRemote => true | _ => false end.

Lemma h2_send_eq h : h2_send h = if open_side h then (Some h, h) else (None, HClosed).
Proof. destruct h; reflexivity. Qed.

Lemma h2_reset_eq h : h2_reset h = (closable h, HClosed).
Proof. destruct h; reflexivity. Qed.

Lemma send_initial_eq s :
  send_initial s =
  if init_done s then (s, [], RRefused)
  else if open_side (hst s) then (set_init s true, [resp_headers], ROk)
  else (set_hst s HClosed, [], RH2Err).
Proof. unfold send_initial. rewrite h2_send_eq. destruct (init_done s), (open_side (hst s)); reflexivity. Qed.

Lemma send_message_eq c s :
  send_message c s =
  let refused := negb (server_streaming c) && msg_done s in
  if init_done s then
    if refused then (s, [], RRefused)
    else if open_side (hst s) then (set_msg s true, [FData], ROk)
    else (set_hst s HClosed, [], RH2Err)
  else if open_side (hst s) then
    if refused then (set_init s true, [resp_headers], RRefused)
    else (set_msg (set_init s true) true, [resp_headers; FData], ROk)
  else (set_hst s HClosed, [], RH2Err).
Proof.
  unfold send_message, send_initial. cbn zeta.
  destruct (init_done s); rewrite h2_send_eq; destruct (open_side (hst s)) eqn:Eo; cbn;
    destruct (negb (server_streaming c) && msg_done s); rewrite ?h2_send_eq, ?Eo; reflexivity.
Qed.

Lemma send_trailing_eq c s st m :
  send_trailing c s st m =
  let f := if init_done s then FTrailers st m else FHeaders 200 true (Some st) m true in
  if trailing_refused c s st then (s, [], RRefused)
  else match hst s with
       | HOpen => if st =? status_ok then (set_trail (set_hst s HLocal) true, [f], ROk)
                  else (set_hst (set_trail s true) HClosed, [f; FRst], ROk)
       | HRemote => (set_hst (set_trail s true) HClosed, [f], ROk)
       | _ => (set_hst s HClosed, [], RH2Err)
       end.
Proof.
  unfold send_trailing, trailing_refused. destruct (trail_done s); [reflexivity|].
  destruct (negb (server_streaming c) && negb (msg_done s) && (st =? status_ok)); [reflexivity|].
  destruct (hst s), (st =? status_ok); reflexivity.
Qed.

Lemma cancel_eq s :
  cancel s =
  if cancel_done s then (s, [], RRefused)
  else if closable (hst s) then (set_cancel (set_hst s HClosed) true, [FRst], ROk)
  else (set_hst s HClosed, [], RH2Err).
Proof. unfold cancel. rewrite h2_reset_eq. reflexivity. Qed.

(* a refused call (grpclib's ProtocolError) emits nothing and changes nothing *)
Theorem refusal_is_silent c s :
  (msg_done s = true -> init_done s = true) ->
  (forall s' out, send_initial s = (s', out, RRefused) -> s' = s /\ out = []) /\
  (forall s' out, send_message c s = (s', out, RRefused) -> s' = s /\ out = []) /\
  (forall st m s' out, send_trailing c s st m = (s', out, RRefused) -> s' = s /\ out = []) /\
  (forall s' out, cancel s = (s', out, RRefused) -> s' = s /\ out = []).
Proof.
  intros Hmi. split; [|split; [|split]].
  - intros s' out. rewrite send_initial_eq.
    destruct (init_done s), (open_side (hst s)); intros [= <- <-]; split; reflexivity.
  - intros s' out. rewrite send_message_eq. cbn zeta.
    destruct (init_done s), (negb (server_streaming c) && msg_done s) eqn:G, (open_side (hst s));
      intros [= <- <-]; try (split; reflexivity).
    (* refused after the implicit HEADERS: excluded, a message is never out before them *)
    apply andb_true_iff in G as [_ G]. discriminate (Hmi G).
  - intros st m s' out. rewrite send_trailing_eq. cbn zeta.
    destruct (trailing_refused c s st); [intros [= <- <-]; split; reflexivity|].
    destruct (hst s), (st =? status_ok); discriminate.
  - intros s' out. rewrite cancel_eq.
    destruct (cancel_done s), (closable (hst s)); intros [= <- <-]; split; reflexivity.
Qed.

Definition inv (s : sstate) (m : mon) : Prop :=
  match m with
  | M0 => init_done s = false /\ msg_done s = false /\ trail_done s = false /\ cancel_done s = false /\
          open_side (hst s) = true
  | MH => init_done s = true /\ trail_done s = false /\ cancel_done s = false /\ open_side (hst s) = true
  | MT => trail_done s = true /\ cancel_done s = false /\ open_side (hst s) = false
  | MR => (trail_done s = true \/ cancel_done s = true) /\ hst s = HClosed
  | MBad => False
  end.

Lemma inv_safe s m : inv s m -> mon_safe m = true.
Proof. destruct m; cbn; tauto. Qed.

Lemma inv_done s m : inv s m -> trail_done s || cancel_done s = true -> mon_done m = true.
Proof.
  destruct m; cbn; try tauto.
  - intros (_ & _ & -> & -> & _). discriminate.
  - intros (_ & -> & -> & _). discriminate.
Qed.

(* while our side is open nothing terminal has been sent *)
Lemma inv_open s m : inv s m -> open_side (hst s) = true -> m = if init_done s then MH else M0.
Proof.
  destruct m; cbn; try tauto.
  - intros (-> & _). reflexivity.
  - intros (-> & _). reflexivity.
  - intros (_ & _ & ->). discriminate.
  - intros (_ & ->). discriminate.
Qed.

Lemma inv_side_open s m : inv s m -> trail_done s || cancel_done s = false -> open_side (hst s) = true.
Proof.
  destruct m; cbn; try tauto.
  - intros (-> & _). discriminate.
  - intros ([-> | ->] & _); [|rewrite orb_true_r]; discriminate.
Qed.

(* h2 refuses a send on a side that is not open, and closes the stream *)
Lemma inv_shut s m : inv s m -> open_side (hst s) = false -> inv (set_hst s HClosed) m.
Proof. destruct m; cbn; intuition congruence. Qed.

Lemma mon_run_app m a b : mon_run m (a ++ b) = mon_run (mon_run m a) b.
Proof. apply fold_left_app. Qed.

Lemma send_initial_inv s m s' out r : inv s m -> send_initial s = (s', out, r) -> inv s' (mon_run m out).
Proof.
  rewrite send_initial_eq. intros Hi.
  destruct (init_done s) eqn:Ei; [intros [= <- <- <-]; exact Hi|].
  destruct (open_side (hst s)) eqn:Eo; intros [= <- <- <-]; [|apply inv_shut; assumption].
  pose proof (inv_open _ _ Hi Eo) as Hm. rewrite Ei in Hm. subst m. cbn in *. intuition.
Qed.

Lemma send_message_inv c s m s' out r : inv s m -> send_message c s = (s', out, r) -> inv s' (mon_run m out).
Proof.
  rewrite send_message_eq. cbn zeta. intros Hi.
  destruct (open_side (hst s)) eqn:Eo.
  - pose proof (inv_open _ _ Hi Eo) as Hm.
    destruct (init_done s), (negb (server_streaming c) && msg_done s); subst m;
      intros [= <- <- <-]; cbn in *; intuition.
  - destruct (init_done s), (negb (server_streaming c) && msg_done s); intros [= <- <- <-];
      exact Hi || (apply inv_shut; assumption).
Qed.

Lemma send_trailing_inv c s st m0 m s' out r :
  inv s m -> send_trailing c s st m0 = (s', out, r) -> inv s' (mon_run m out).
Proof.
  rewrite send_trailing_eq. cbn zeta. intros Hi.
  destruct (trailing_refused c s st); [intros [= <- <- <-]; exact Hi|].
  destruct (open_side (hst s)) eqn:Eo.
  - pose proof (inv_open _ _ Hi Eo) as Hm.
    destruct (hst s); try discriminate Eo; destruct (init_done s), (st =? status_ok); subst m;
      intros [= <- <- <-]; cbn in *; intuition.
  - destruct (hst s) eqn:Eh; try discriminate Eo; intros [= <- <- <-];
      (apply inv_shut; [exact Hi | rewrite Eh; reflexivity]).
Qed.

Lemma cancel_inv s m s' out r : inv s m -> cancel s = (s', out, r) -> inv s' (mon_run m out).
Proof.
  rewrite cancel_eq. intros Hi.
  destruct (cancel_done s); [intros [= <- <- <-]; exact Hi|].
  destruct (closable (hst s)) eqn:Ec; intros [= <- <- <-].
  - (* RST_STREAM is accepted in every state but MR, and there the stream is closed *)
    destruct m; cbn in *; try tauto. destruct Hi as (_ & Hc). rewrite Hc in Ec. discriminate.
  - apply inv_shut; [exact Hi|]. destruct (hst s); try discriminate; reflexivity.
Qed.

Lemma final_status_app a b :
  final_status (a ++ b) = match final_status a with Some x => Some x | None => final_status b end.
Proof.
  induction a as [|f a IH]; [reflexivity|].
  destruct f as [st ct [g|] m [|]| |g m|]; cbn; auto.
Qed.

Lemma final_status_app_none a b : final_status b = None -> final_status (a ++ b) = final_status a.
Proof. intros Hb. rewrite final_status_app, Hb. destruct (final_status a); reflexivity. Qed.

Lemma count_data_app a b : count_data (a ++ b) = (count_data a + count_data b)%nat.
Proof.
  induction a as [|f a IH]; [reflexivity|]. destruct f; cbn; auto.
Qed.

(* a step that sends neither a message nor a status *)
Definition neutral (s : sstate) (out : list frame) (s' : sstate) : Prop :=
  trail_done s' = trail_done s /\ msg_done s' = msg_done s /\ final_status out = None /\ count_data out = 0%nat.

Lemma send_initial_neutral s s' out r :
  send_initial s = (s', out, r) -> neutral s out s' /\ cancel_done s' = cancel_done s.
Proof.
  rewrite send_initial_eq.
  destruct (init_done s), (open_side (hst s)); intros [= <- <- <-]; repeat split.
Qed.

Lemma cancel_neutral s s' out r : cancel s = (s', out, r) -> neutral s out s'.
Proof.
  rewrite cancel_eq.
  destruct (cancel_done s), (closable (hst s)); intros [= <- <- <-]; repeat split.
Qed.

Lemma send_message_shape c s s' out r :
  send_message c s = (s', out, r) ->
  if negb (negb (server_streaming c) && msg_done s) && open_side (hst s)
  then trail_done s' = trail_done s /\ final_status out = None /\ msg_done s' = true /\ count_data out = 1%nat
  else neutral s out s'.
Proof.
  rewrite send_message_eq. cbn zeta.
  destruct (init_done s), (negb (server_streaming c) && msg_done s), (open_side (hst s));
    intros [= <- <- <-]; repeat split.
Qed.

Lemma send_trailing_shape c s st m s' out r :
  send_trailing c s st m = (s', out, r) ->
  if negb (trailing_refused c s st) && open_side (hst s)
  then msg_done s' = msg_done s /\ count_data out = 0%nat /\ trail_done s' = true /\ final_status out = Some (st, m)
  else neutral s out s'.
Proof.
  rewrite send_trailing_eq. cbn zeta.
  destruct (trailing_refused c s st); [intros [= <- <- <-]; repeat split|].
  destruct (hst s), (init_done s), (st =? status_ok); intros [= <- <- <-]; repeat split.
Qed.

(* what the two flags say about the frames sent so far *)
Set Implicit Arguments.
Record K (ops_all : list op) (c : card) (trail msg : bool) (acc : list frame) : Prop := {
  K_no_status : trail = false -> final_status acc = None;
  K_status : trail = true -> exists st m, In (SendTrailing st m false) ops_all /\ final_status acc = Some (st, m);
  K_no_msg : msg = false -> count_data acc = 0%nat;
  K_one_msg : server_streaming c = false -> msg = true -> count_data acc = 1%nat;
  K_ok_has_msg : server_streaming c = false -> forall m, final_status acc = Some (status_ok, m) -> msg = true }.
Unset Implicit Arguments.

Lemma K_neutral ops_all c s s' acc out :
  K ops_all c (trail_done s) (msg_done s) acc -> neutral s out s' ->
  K ops_all c (trail_done s') (msg_done s') (acc ++ out).
Proof.
  intros [K1 K2 K3 K4 K5] (-> & -> & Hf & Hc).
  split; rewrite ?(final_status_app_none acc out Hf), ?count_data_app, ?Hc, ?Nat.add_0_r; assumption.
Qed.

Lemma send_message_K ops_all c s acc s' out r :
  K ops_all c (trail_done s) (msg_done s) acc -> send_message c s = (s', out, r) ->
  K ops_all c (trail_done s') (msg_done s') (acc ++ out).
Proof.
  intros HK H. apply send_message_shape in H.
  destruct (negb (negb (server_streaming c) && msg_done s) && open_side (hst s)) eqn:G; [|eapply K_neutral; eauto].
  destruct H as (-> & Hf & -> & Hc), HK as [K1 K2 K3 _ _].
  split; rewrite ?(final_status_app_none acc out Hf); try assumption; try discriminate; [|reflexivity].
  (* a unary reply: the message just sent is the first *)
  intros Hu _. rewrite Hu in G. destruct (msg_done s); [discriminate G|].
  rewrite count_data_app, Hc, K3; reflexivity.
Qed.

Lemma send_trailing_K ops_all c s acc st m s' out r :
  In (SendTrailing st m false) ops_all ->
  K ops_all c (trail_done s) (msg_done s) acc -> send_trailing c s st m = (s', out, r) ->
  K ops_all c (trail_done s') (msg_done s') (acc ++ out).
Proof.
  intros Hin HK H. apply send_trailing_shape in H.
  destruct (negb (trailing_refused c s st) && open_side (hst s)) eqn:G; [|eapply K_neutral; eauto].
  apply andb_true_iff in G as [G _]. apply negb_true_iff, orb_false_iff in G as [Gt Gok].
  destruct H as (-> & Hc & -> & Hf), HK as [K1 _ K3 K4 _].
  split; rewrite ?final_status_app, ?(K1 Gt), ?Hf, ?count_data_app, ?Hc, ?Nat.add_0_r; try assumption.
  - discriminate.
  - intros _. exists st, m. auto.
  - (* OK trailers on a unary reply are refused unless the message is out *)
    intros Hu m' [= Hst _]. rewrite Hu, Hst, Z.eqb_refl in Gok. destruct (msg_done s); [reflexivity | discriminate].
Qed.

(* both facts; after a client reset the h2 state no longer follows the flags, but nothing more will go out *)
Definition J (ops_all : list op) (c : card) (reset : bool) (s : sstate) (acc : list frame) : Prop :=
  K ops_all c (trail_done s) (msg_done s) acc /\
  if reset then hst s = HClosed /\ mon_safe (mon_run M0 acc) = true else inv s (mon_run M0 acc).

Lemma J_init ops_all e : J ops_all (e_card e) false (init_state e) [].
Proof.
  split; [repeat split; try discriminate; reflexivity|].
  unfold init_state. destruct (e_eof e); repeat split.
Qed.

Lemma J_step ops_all c acc s' out :
  K ops_all c (trail_done s') (msg_done s') (acc ++ out) -> inv s' (mon_run (mon_run M0 acc) out) ->
  J ops_all c false s' (acc ++ out).
Proof. intros HK Hi. split; [exact HK | rewrite mon_run_app; exact Hi]. Qed.

(* the calls as the handler makes them (part-way failures, paused transport): when they return at all, either
   nothing has happened, or the call itself has been made *)
Definition nothing_done (s s' : sstate) (out : list frame) (r : opres) : Prop := s' = s /\ out = [] /\ r <> ROk.

Lemma nothing_done_or s r s' out r' (Q : Prop) :
  r <> ROk -> PDone s [] r = PDone s' out r' -> nothing_done s s' out r' \/ Q.
Proof. intros Hr [= <- <- <-]. left. repeat split. exact Hr. Qed.

Lemma do_send_initial_cases s f s' out r :
  do_send_initial s f = PDone s' out r -> nothing_done s s' out r \/ (f = false /\ send_initial s = (s', out, r)).
Proof.
  unfold do_send_initial.
  destruct (init_done s); [apply nothing_done_or; discriminate|].
  destruct f; [apply nothing_done_or; discriminate|].
  destruct (paused s); [discriminate|].
  destruct (send_initial s) as [[s1 o1] r1]. intros [= <- <- <-]. right. split; reflexivity.
Qed.

Lemma do_send_trailing_cases c s st m f s' out r :
  do_send_trailing c s st m f = PDone s' out r ->
  nothing_done s s' out r \/ (f = false /\ send_trailing c s st m = (s', out, r)).
Proof.
  unfold do_send_trailing.
  destruct (trailing_refused c s st); [apply nothing_done_or; discriminate|].
  destruct f; [apply nothing_done_or; discriminate|].
  destruct (paused s); [discriminate|].
  destruct (send_trailing c s st m) as [[s1 o1] r1]. intros [= <- <- <-]. right. split; reflexivity.
Qed.

Lemma do_cancel_cases s s' out r : do_cancel s = PDone s' out r -> nothing_done s s' out r \/ cancel s = (s', out, r).
Proof.
  unfold do_cancel.
  destruct (cancel_done s); [apply nothing_done_or; discriminate|].
  destruct (paused s); [discriminate|].
  destruct (cancel s) as [[s1 o1] r1]. intros [= <- <- <-]. right. reflexivity.
Qed.

(* send_message that fails in the codec may have sent the implicit HEADERS before *)
Lemma do_send_message_cases c s f s' out r :
  do_send_message c s f = PDone s' out r ->
  nothing_done s s' out r \/
  (f = true /\ r <> ROk /\ exists r1, send_initial s = (s', out, r1)) \/
  (f = false /\ send_message c s = (s', out, r)).
Proof.
  unfold do_send_message. destruct (paused s).
  { destruct (negb (init_done s)); [discriminate|].
    destruct (negb (server_streaming c) && msg_done s); [apply nothing_done_or; discriminate|].
    destruct f; [apply nothing_done_or; discriminate | discriminate]. }
  destruct f.
  - destruct (init_done s).
    + destruct (negb (server_streaming c) && msg_done s); apply nothing_done_or; discriminate.
    + destruct (send_initial s) as [[s1 o1] r1]. intros H. right. left. split; [reflexivity|].
      assert (s' = s1 /\ out = o1 /\ r <> ROk) as (-> & -> & Hr).
      { destruct r1; try destruct (negb (server_streaming c) && msg_done s1); injection H as <- <- <-;
          repeat split; discriminate. }
      split; [exact Hr|]. exists r1. reflexivity.
  - destruct (send_message c s) as [[s1 o1] r1]. intros [= <- <- <-]. right. right. split; reflexivity.
Qed.

Theorem partway_failure_is_harmless c s :
  (forall s' out r, do_send_initial s true = PDone s' out r -> s' = s /\ out = [] /\ r <> ROk) /\
  (forall st m s' out r, do_send_trailing c s st m true = PDone s' out r -> s' = s /\ out = [] /\ r <> ROk) /\
  (forall s' out r, do_send_message c s true = PDone s' out r ->
     msg_done s' = msg_done s /\ trail_done s' = trail_done s /\ cancel_done s' = cancel_done s /\
     count_data out = 0%nat /\ final_status out = None /\ r <> ROk).
Proof.
  split; [|split].
  - intros s' out r H. destruct (do_send_initial_cases _ _ _ _ _ H) as [Hi|(? & _)]; [exact Hi | discriminate].
  - intros st m s' out r H.
    destruct (do_send_trailing_cases _ _ _ _ _ _ _ _ H) as [Hi|(? & _)]; [exact Hi | discriminate].
  - intros s' out r H.
    destruct (do_send_message_cases _ _ _ _ _ _ H) as [(-> & -> & Hr)|[(_ & Hr & r1 & E)|(? & _)]];
      [repeat split; exact Hr | | discriminate].
    apply send_initial_neutral in E as ((Ht & Hm & Hf & Hc) & Hcn). repeat split; assumption.
Qed.

Definition same_flags (a b : sstate) : Prop :=
  init_done a = init_done b /\ msg_done a = msg_done b /\ trail_done a = trail_done b /\
  cancel_done a = cancel_done b.

(* a delivered event changes no flag; only a (non-void) client reset touches the h2 state: it closes it *)
Lemma deliver_spec t e s w s1 oc :
  deliver t e s w = (s1, oc) ->
  same_flags s1 s /\ hst s1 = match oc with Some CReset => HClosed | _ => hst s end.
Proof.
  unfold deliver.
  destruct (negb _); [intros [= <- <-]; repeat split|].
  set (deadline := match t with TValid => true | _ => false end).
  destruct (e_ext e), (fired s), (closable (hst s)), w, deadline; intros [= <- <-]; repeat split.
Qed.

Lemma inv_core a b m : same_flags b a -> hst b = hst a -> inv a m -> inv b m.
Proof. intros (H1 & H2 & H3 & H4) H5. destruct m; cbn; rewrite ?H1, ?H2, ?H3, ?H4, ?H5; trivial. Qed.

Lemma deliver_J ops_all c t e s w s1 oc acc :
  deliver t e s w = (s1, oc) -> J ops_all c false s acc ->
  J ops_all c (match oc with Some CReset => true | _ => false end) s1 acc.
Proof.
  intros Hd (HK & Hi). apply deliver_spec in Hd as (Hf & Hh). split.
  - rewrite <- (app_nil_r acc). eapply K_neutral; [exact HK|].
    destruct Hf as (_ & Hm & Ht & _). repeat split; assumption.
  - destruct oc as [[]|]; [split; [exact Hh | eapply inv_safe; exact Hi] | | |]; eapply inv_core; eauto.
Qed.

Definition is_reset (st : stop) : bool := match st with Interrupted CReset => true | _ => false end.

Lemma run_ops_J ops_all : forall ops t e s acc s' out rs stp,
  incl ops ops_all -> J ops_all (e_card e) false s acc -> run_ops t e s ops = (s', out, rs, stp) ->
  J ops_all (e_card e) (is_reset stp) s' (acc ++ out).
Proof.
  induction ops as [|o r IH]; intros t e s acc s' out rs stp Hincl HJ Hr.
  - injection Hr as <- <- <- <-. rewrite app_nil_r. exact HJ.
  - cbn [run_ops] in Hr. apply incl_cons_inv in Hincl as [Ho Hincl].
    (* a step ends in one of two ways: the rest of the program runs (`continue` in run_ops) ... *)
    assert (Hcont : forall s1 out1 r1,
               J ops_all (e_card e) false s1 (acc ++ out1) ->
               (let '(s2, out2, rs0, st0) := run_ops t e s1 r in (s2, out1 ++ out2, r1 :: rs0, st0))
               = (s', out, rs, stp) -> J ops_all (e_card e) (is_reset stp) s' (acc ++ out)).
    { intros s1 out1 r1 H1 Heq. destruct (run_ops t e s1 r) as [[[s2 out2] rs0] st0] eqn:Er.
      injection Heq as <- <- <- <-. rewrite app_assoc. eapply IH; eauto. }
    (* ... or the handler is suspended until the environment's event, if any *)
    assert (Hwait : (let '(s1, oc) := deliver t e s true in
                     match oc with
                     | Some c => (s1, [], [RCancelled], Interrupted c)
                     | None => (s1, [], [], Stuck)
                     end) = (s', out, rs, stp) -> J ops_all (e_card e) (is_reset stp) s' (acc ++ out)).
    { destruct (deliver t e s true) as [s1 oc] eqn:Ed. pose proof (deliver_J _ _ _ _ _ _ _ _ _ Ed HJ) as H1.
      destruct oc; intros [= <- <- <- <-]; rewrite app_nil_r; exact H1. }
    assert (Hsame : J ops_all (e_card e) false s (acc ++ [])) by (rewrite app_nil_r; exact HJ).
    destruct HJ as (HK & Hi).
    destruct o as [|f|f|st m f| | |].
    + (* Recv *) destruct (recv_outcome e (recvd s)); [eapply Hcont; [|exact Hr]; exact Hsame.. | exact (Hwait Hr)].
    + destruct (do_send_initial s f) as [s1 out1 r1|] eqn:E; [|exact (Hwait Hr)].
      eapply Hcont; [|exact Hr].
      destruct (do_send_initial_cases _ _ _ _ _ E) as [(-> & -> & _)|(_ & E')]; [exact Hsame|].
      apply J_step; [eapply K_neutral, send_initial_neutral; eauto | eapply send_initial_inv; eauto].
    + destruct (do_send_message (e_card e) s f) as [s1 out1 r1|] eqn:E; [|exact (Hwait Hr)].
      eapply Hcont; [|exact Hr].
      destruct (do_send_message_cases _ _ _ _ _ _ E) as [(-> & -> & _)|[(_ & _ & r0 & E')|(_ & E')]]; [exact Hsame| |].
      * apply J_step; [eapply K_neutral, send_initial_neutral; eauto | eapply send_initial_inv; eauto].
      * apply J_step; [eapply send_message_K; eauto | eapply send_message_inv; eauto].
    + destruct (do_send_trailing (e_card e) s st m f) as [s1 out1 r1|] eqn:E; [|exact (Hwait Hr)].
      eapply Hcont; [|exact Hr].
      destruct (do_send_trailing_cases _ _ _ _ _ _ _ _ E) as [(-> & -> & _)|(-> & E')]; [exact Hsame|].
      apply J_step; [eapply send_trailing_K; eauto | eapply send_trailing_inv; eauto].
    + destruct (do_cancel s) as [s1 out1 r1|] eqn:E; [|exact (Hwait Hr)].
      eapply Hcont; [|exact Hr].
      destruct (do_cancel_cases _ _ _ _ E) as [(-> & -> & _)|E']; [exact Hsame|].
      apply J_step; [eapply K_neutral, cancel_neutral; eauto | eapply cancel_inv; eauto].
    + (* Sleep *) destruct (deliver t e s false) as [s1 oc] eqn:Ed.
      pose proof (deliver_J _ _ _ _ _ _ _ _ (acc ++ []) Ed Hsame) as H1.
      destruct oc; [injection Hr as <- <- <- <-; exact H1 | eapply Hcont; [|exact Hr]; exact H1].
    + (* Pause *) eapply Hcont; [|exact Hr]. exact Hsame.
Qed.

Definition reset_kind (k : endkind) : bool :=
  match k with KCancelled CReset | KSwallowed CReset _ => true | _ => false end.

Lemma after_cancel_reset p c : reset_kind (after_cancel p c) = match c with CReset => true | _ => false end.
Proof. destruct p, c; reflexivity. Qed.

Lemma run_handler_J t e p s1 out rs k :
  run_handler t e p = (s1, out, rs, k) -> k <> KNotRun /\ J (p_ops p) (e_card e) (reset_kind k) s1 out.
Proof.
  unfold run_handler.
  destruct (run_ops t e (init_state e) (p_ops p)) as [[[s0 out0] rs0] st0] eqn:Er.
  pose proof (run_ops_J _ _ _ _ _ [] _ _ _ _ (incl_refl _) (J_init _ e) Er) as HJ. cbn [app] in HJ.
  assert (Hc : forall c, after_cancel (p_policy p) c <> KNotRun) by (intros c; destruct (p_policy p); discriminate).
  destruct st0 as [|c|].
  - destruct (p_fin p) as [f|]; [intros [= <- <- <- <-]; split; [discriminate | exact HJ]|].
    destruct (deliver t e s0 true) as [s2 oc] eqn:Ed. apply (deliver_J _ _ _ _ _ _ _ _ _ Ed) in HJ.
    destruct oc as [c|]; intros [= <- <- <- <-]; [|split; [discriminate | exact HJ]].
    rewrite after_cancel_reset. split; [apply Hc | exact HJ].
  - intros [= <- <- <- <-]. rewrite after_cancel_reset. split; [apply Hc | exact HJ].
  - intros [= <- <- <- <-]. split; [discriminate | exact HJ].
Qed.

(* the ending after which __aexit__ sends nothing although the handler sent nothing terminal:
   a BaseException (D4).  GRPCError(Status.OK) on a unary reply without a message is not one: it is answered
   UNKNOWN (D42). *)
Definition silent_exit (c : card) (s : sstate) (e : option exn) : bool :=
  negb (trail_done s) && negb (cancel_done s) &&
  match e with
  | Some EBase => true
  | _ => false
  end.

Lemma not_silent c s e : e <> Some EBase -> silent_exit c s e = false.
Proof. unfold silent_exit. destruct e as [[]|]; rewrite ?andb_false_r; congruence. Qed.

(* the status __aexit__ adds when the handler sent neither trailers nor RST_STREAM *)
Definition implicit_status (c : card) (s : sstate) (e : option exn) : option (Z * option (list Z)) :=
  match e with
  | Some (EGRPC st m) =>
      if (st =? status_ok) && negb (server_streaming c) && negb (msg_done s) then Some aexit_exception
      else Some (st, m)
  | Some EExc => Some aexit_exception
  | Some EBase => None
  | None => if negb (server_streaming c) && negb (msg_done s) then Some aexit_unary_missing else Some aexit_normal
  end.

Lemma aexit_eq c s e :
  aexit c s e =
  if trail_done s || cancel_done s then (s, [])
  else match implicit_status c s e with
       | Some (st, m) => let '(s', out, _) := send_trailing c s st m in (s', out)
       | None => (s, [])
       end.
Proof.
  unfold aexit, implicit_status. destruct (trail_done s || cancel_done s); [reflexivity|].
  destruct e as [[st m| |]|]; try reflexivity.
  - cbn [andb aexit_grpc_ok_unary_as_exception].
    destruct ((st =? status_ok) && negb (server_streaming c) && negb (msg_done s)); reflexivity.
  - destruct (negb (server_streaming c) && negb (msg_done s)); reflexivity.
Qed.

(* the status chosen at exit is never one that send_trailing_metadata refuses *)
Lemma implicit_status_sendable c s e st m :
  trail_done s = false -> implicit_status c s e = Some (st, m) -> trailing_refused c s st = false.
Proof.
  unfold trailing_refused, implicit_status. intros ->. cbn [orb].
  destruct e as [[st0 m0| |]|]; try discriminate.
  - destruct (st0 =? status_ok) eqn:E, (negb (server_streaming c)), (negb (msg_done s)); intros [= <- <-];
      try rewrite E; reflexivity.
  - destruct (negb (server_streaming c)), (negb (msg_done s)); intros [= <- <-]; reflexivity.
  - destruct (negb (server_streaming c)), (negb (msg_done s)); intros [= <- <-]; reflexivity.
Qed.

Lemma aexit_inv c s e m s' out : inv s m -> aexit c s e = (s', out) -> inv s' (mon_run m out).
Proof.
  rewrite aexit_eq. intros Hi.
  destruct (trail_done s || cancel_done s); [intros [= <- <-]; exact Hi|].
  destruct (implicit_status c s e) as [[st m0]|]; [|intros [= <- <-]; exact Hi].
  destruct (send_trailing c s st m0) as [[s1 o1] r1] eqn:E. intros [= <- <-]. eapply send_trailing_inv; eauto.
Qed.

(* after a client reset nothing more goes out *)
Lemma aexit_closed c s e : hst s = HClosed -> snd (aexit c s e) = [].
Proof.
  rewrite aexit_eq. intros Hc.
  destruct (trail_done s || cancel_done s); [reflexivity|].
  destruct (implicit_status c s e) as [[st m0]|]; [|reflexivity].
  rewrite send_trailing_eq, Hc. cbn zeta. destruct (trailing_refused c s st); reflexivity.
Qed.

Lemma aexit_sends c s e m s' out :
  inv s m -> trail_done s || cancel_done s = false -> aexit c s e = (s', out) ->
  final_status out = implicit_status c s e /\ count_data out = 0%nat /\
  (silent_exit c s e = false -> trail_done s' = true).
Proof.
  rewrite aexit_eq. intros Hi Hn. rewrite Hn. pose proof (inv_side_open _ _ Hi Hn) as Ho.
  apply orb_false_iff in Hn as [Ht Hc]. unfold silent_exit. rewrite Ht, Hc.
  destruct (implicit_status c s e) as [[st m0]|] eqn:Ei.
  - destruct (send_trailing c s st m0) as [[s1 o1] r1] eqn:E. intros [= <- <-].
    apply send_trailing_shape in E. rewrite (implicit_status_sendable _ _ _ _ _ Ht Ei), Ho in E.
    destruct E as (_ & Hn & Hd & Hf). auto.
  - intros [= <- <-]. repeat split. unfold implicit_status in Ei.
    destruct e as [[| |]|]; [destruct (_ && _) in Ei | | | destruct (_ && _) in Ei]; discriminate.
Qed.

(* __aexit__ after a handler that left the stream in state s having sent out *)
Lemma aexit_summary ops_all c reset s out e s2 out2 :
  J ops_all c reset s out -> aexit c s e = (s2, out2) ->
  well_formed (out ++ out2) = true /\
  (reset = false -> silent_exit c s e = false -> accepted (out ++ out2) = true) /\
  count_data out2 = 0%nat /\
  if reset || trail_done s || cancel_done s then out2 = [] else final_status out2 = implicit_status c s e.
Proof.
  intros (HK & Hi) Ha. unfold well_formed, accepted. rewrite mon_run_app. destruct reset.
  - destruct Hi as (Hc & Hsafe). pose proof (aexit_closed c s e Hc) as Hn. rewrite Ha in Hn. cbn in Hn. subst out2.
    repeat split; [exact Hsafe | discriminate].
  - pose proof (aexit_inv _ _ _ _ _ _ Hi Ha) as Hi2. cbn [orb].
    destruct (trail_done s || cancel_done s) eqn:Hn.
    + rewrite aexit_eq, Hn in Ha. injection Ha as <- <-.
      repeat split; [eapply inv_safe; eauto | intros _ _; eapply inv_done; eauto].
    + destruct (aexit_sends _ _ _ _ _ _ Hi Hn Ha) as (Hf & Hd & Ht).
      repeat split; [eapply inv_safe; eauto | | exact Hd | exact Hf].
      intros _ Hs. eapply inv_done; [exact Hi2 | rewrite (Ht Hs); reflexivity].
Qed.

Lemma abort_out e h gs m :
  abort (hst (init_state e)) h gs m = FHeaders h false gs m true :: (if e_eof e then [] else [FRst]).
Proof. unfold init_state, abort. destruct (e_eof e); reflexivity. Qed.

Lemma first_abort_in cs known hs tbl i0 i en :
  first_abort cs known hs tbl i0 = Some (i, en) -> In en tbl.
Proof.
  revert i0. induction tbl as [|x r IH]; intros i0 H; cbn in H; [discriminate|].
  destruct (guard_fires cs known hs (fst (fst (fst x)))).
  - injection H as _ <-. left. reflexivity.
  - right. eapply IH; eauto.
Qed.

Lemma validate_abort_error cs known hs i h gs m :
  validate cs known hs = VAbort i h gs m -> error_response h gs = true /\ gs <> Some status_ok.
Proof.
  unfold validate. destruct (first_abort cs known hs abort_table 0) as [[j [[[g h'] gs'] m']]|] eqn:E; [|discriminate].
  intros [= <- <- <- <-]. apply first_abort_in in E.
  pose proof abort_entries_are_errors as A. rewrite forallb_forall in A.
  apply A, andb_true_iff in E as [E1 E2]. split; [exact E1|].
  intros ->. rewrite Z.eqb_refl in E2. discriminate.
Qed.

Lemma error_response_terminal h gs : error_response h gs = true -> terminal_headers_ok h false gs = true.
Proof.
  unfold error_response, terminal_headers_ok. destruct (h =? 200); cbn; [|reflexivity].
  destruct gs; [|discriminate]. auto.
Qed.

Theorem unacceptable_rejected known hs e p i h gs m :
  validate (e_codec e) known hs = VAbort i h gs m ->
  let r := run_call known hs e p in
  r_out r = FHeaders h false gs m true :: (if e_eof e then [] else [FRst]) /\
  accepted (r_out r) = true /\ error_response h gs = true /\ count_data (r_out r) = 0%nat /\
  r_results r = [] /\ r_end r = KNotRun.
Proof.
  intros Hv. cbn zeta. unfold run_call. rewrite Hv. cbn [r_out r_results r_end]. rewrite abort_out.
  destruct (validate_abort_error _ _ _ _ _ _ _ Hv) as (He & _).
  pose proof (error_response_terminal _ _ He) as Ht.
  repeat split; auto.
  - unfold accepted. destruct (e_eof e); cbn; rewrite Ht; reflexivity.
  - destruct (e_eof e); reflexivity.
Qed.

Theorem expired_out known hs e p :
  validate (e_codec e) known hs = VAccept TExpired ->
  let r := run_call known hs e p in
  r_out r = FHeaders 200 true (Some 4) None true :: (if e_eof e then [] else [FRst]) /\
  r_end r = KNotRun /\ r_results r = [].
Proof.
  intros Hv. cbn zeta. unfold run_call. rewrite Hv. unfold init_state.
  destruct (e_eof e), (e_card e); repeat split.
Qed.

Definition hangs (k : endkind) : bool := match k with KHang => true | _ => false end.

Lemma hangs_false k : k <> KHang -> hangs k = false.
Proof. destruct k; intros H; reflexivity || contradiction. Qed.

(* request_handler once the request has been accepted and its deadline has not expired *)
Definition run_validated (t : tclass) (e : env) (p : prog) : result :=
  let '(s1, out, rs, k) := run_handler t e p in
  let '(s2, out2) := if hangs k then (s1, []) else aexit (e_card e) s1 (exit_exn k) in
  mkR (VAccept t) (out ++ out2) rs k s1 s2.

Lemma run_call_validated known hs e p t :
  validate (e_codec e) known hs = VAccept t -> t <> TExpired -> run_call known hs e p = run_validated t e p.
Proof.
  intros Hv Hne. unfold run_call, run_validated. rewrite Hv.
  destruct t; try congruence; destruct (run_handler _ e p) as [[[s1 out] rs] []];
    cbn [hangs]; rewrite ?app_nil_r; reflexivity.
Qed.

(* the handler hangs, the client reset the stream, or the handler sent trailers or RST_STREAM itself:
   nothing is added at exit *)
Definition exit_adds_nothing (k : endkind) (s : sstate) : bool :=
  hangs k || reset_kind k || trail_done s || cancel_done s.

(* a call whose request was accepted: out1 is what the handler itself sent; the exit path adds no message,
   and a status exactly when exit_adds_nothing says it adds anything *)
Set Implicit Arguments.
Record summary (p : prog) (c : card) (r : result) : Prop := {
  sum_ran : r_end r <> KNotRun;
  sum_well_formed : well_formed (r_out r) = true;
  sum_one_terminal : r_end r <> KHang -> reset_kind (r_end r) = false ->
                     silent_exit c (r_pre r) (exit_exn (r_end r)) = false -> accepted (r_out r) = true;
  sum_status : exists out1,
      K (p_ops p) c (trail_done (r_pre r)) (msg_done (r_pre r)) out1 /\ count_data (r_out r) = count_data out1 /\
      if exit_adds_nothing (r_end r) (r_pre r) then r_out r = out1
      else final_status (r_out r) = implicit_status c (r_pre r) (exit_exn (r_end r)) }.
Unset Implicit Arguments.

Definition returned_normally (k : endkind) : bool :=
  match k with KFin Return | KSwallowed CClose Return => true | _ => false end.

Lemma exit_exn_none k : exit_exn k = None -> returned_normally k = true \/ k = KNotRun \/ k = KHang.
Proof.
  destruct k as [|[|st m|[]|]|[]|[] [|st m|[]|]|]; cbn; intros H; try discriminate H; auto.
Qed.

Lemma returned_normally_exit k :
  returned_normally k = true -> exit_exn k = None /\ reset_kind k = false /\ k <> KHang.
Proof. destruct k as [|[]|c|[] []|]; intros H; try discriminate H; repeat split; discriminate. Qed.

Definition deadline_kind (k : endkind) : bool :=
  match k with KCancelled CDeadline | KSwallowed CDeadline _ => true | _ => false end.

Lemma deadline_kind_exit k : deadline_kind k = true -> exit_exn k = Some (EGRPC 4 None) /\ reset_kind k = false.
Proof. destruct k as [|f|[]|[] [|? ?|[]|]|]; intros H; try discriminate H; split; reflexivity. Qed.

(* st, m: the GRPCError, ek: the Exception the handler raised, in the theorems that speak of one *)
Section Validated.
Context (known : list (list Z)) (hs : list header) (e : env) (p : prog) (t : tclass)
  (st : Z) (m : option (list Z)) (ek : exck)
  (Hv : validate (e_codec e) known hs = VAccept t) (Hne : t <> TExpired).
Let r := run_call known hs e p.

Lemma call_summary : summary p (e_card e) r.
Proof.
  unfold r. rewrite (run_call_validated _ _ _ _ _ Hv Hne). unfold run_validated.
  destruct (run_handler t e p) as [[[s1 out] rs] k] eqn:Eh. apply run_handler_J in Eh as (Hk & HJ).
  destruct (hangs k) eqn:Ehang.
  - destruct k; try discriminate Ehang. destruct HJ as (HK & Hi). split; cbn [r_out r_end r_pre]; rewrite ?app_nil_r.
    + exact Hk.
    + eapply inv_safe; exact Hi.
    + congruence.
    + exists out. split; [exact HK|]. split; reflexivity.
  - destruct (aexit (e_card e) s1 (exit_exn k)) as [s2 out2] eqn:Ea.
    destruct (aexit_summary _ _ _ _ _ _ _ _ HJ Ea) as (Hw & Ha & Hd & Hq).
    split; cbn [r_out r_end r_pre]; [exact Hk | exact Hw | intros _; exact Ha|].
    exists out. rewrite count_data_app, Hd, Nat.add_0_r. split; [apply HJ|]. split; [reflexivity|].
    unfold exit_adds_nothing. rewrite Ehang. cbn [orb].
    destruct (reset_kind k || trail_done s1 || cancel_done s1) eqn:Eq.
    + rewrite Hq. apply app_nil_r.
    + apply orb_false_iff in Eq as [Eq _]. apply orb_false_iff in Eq as [_ Et].
      rewrite final_status_app, (K_no_status (proj1 HJ) Et). exact Hq.
Qed.

Theorem status_at_exit :
  r_end r <> KHang -> reset_kind (r_end r) = false ->
  trail_done (r_pre r) = false -> cancel_done (r_pre r) = false ->
  final_status (r_out r) = implicit_status (e_card e) (r_pre r) (exit_exn (r_end r)).
Proof.
  intros Hk Hr Ht Hc. destruct (sum_status call_summary) as (out1 & _ & _ & Hq).
  unfold exit_adds_nothing in Hq. rewrite (hangs_false _ Hk), Hr, Ht, Hc in Hq. exact Hq.
Qed.

(* when an exception reaches __aexit__: the status it stands for, and -- unless it is a BaseException --
   exactly one terminal *)
Theorem exception_at_exit x :
  exit_exn (r_end r) = Some x -> reset_kind (r_end r) = false ->
  trail_done (r_pre r) = false -> cancel_done (r_pre r) = false ->
  final_status (r_out r) = implicit_status (e_card e) (r_pre r) (Some x) /\
  (x <> EBase -> accepted (r_out r) = true).
Proof.
  intros Hx Hr Ht Hc.
  assert (Hk : r_end r <> KHang) by (intros Hk; rewrite Hk in Hx; discriminate).
  rewrite <- Hx. split; [exact (status_at_exit Hk Hr Ht Hc)|].
  intros Hb. apply (sum_one_terminal call_summary Hk Hr), not_silent. congruence.
Qed.

Theorem return_status :
  returned_normally (r_end r) = true -> trail_done (r_pre r) = false -> cancel_done (r_pre r) = false ->
  final_status (r_out r) =
    if server_streaming (e_card e) || msg_done (r_pre r) then Some (0, None) else Some (2, Some internal_msg).
Proof.
  intros Hn Ht Hc. destruct (returned_normally_exit _ Hn) as (Hx & Hr & Hk).
  rewrite (status_at_exit Hk Hr Ht Hc), Hx. cbn.
  destruct (server_streaming (e_card e)), (msg_done (r_pre r)); reflexivity.
Qed.

Theorem grpc_error_status :
  exit_exn (r_end r) = Some (EGRPC st m) -> reset_kind (r_end r) = false ->
  trail_done (r_pre r) = false -> cancel_done (r_pre r) = false ->
  (st = status_ok -> server_streaming (e_card e) = true \/ msg_done (r_pre r) = true) ->
  final_status (r_out r) = Some (st, m).
Proof.
  intros Hx Hr Ht Hc Hok. rewrite (proj1 (exception_at_exit _ Hx Hr Ht Hc)). unfold implicit_status.
  destruct (st =? status_ok) eqn:E; [|reflexivity].
  apply Z.eqb_eq in E. destruct (Hok E) as [H|H]; rewrite H; cbn; try reflexivity.
  rewrite andb_false_r. reflexivity.
Qed.

Theorem grpc_ok_without_message_status :
  exit_exn (r_end r) = Some (EGRPC status_ok m) -> reset_kind (r_end r) = false ->
  trail_done (r_pre r) = false -> cancel_done (r_pre r) = false ->
  server_streaming (e_card e) = false -> msg_done (r_pre r) = false ->
  final_status (r_out r) = Some (2, Some internal_msg) /\ accepted (r_out r) = true.
Proof.
  intros Hx Hr Ht Hc Hu Hm. destruct (exception_at_exit _ Hx Hr Ht Hc) as (Hf & Ha).
  split; [|apply Ha; discriminate].
  rewrite Hf. unfold implicit_status. rewrite Hu, Hm, Z.eqb_refl. reflexivity.
Qed.

Theorem deadline_status :
  deadline_kind (r_end r) = true -> trail_done (r_pre r) = false -> cancel_done (r_pre r) = false ->
  final_status (r_out r) = Some (4, None) /\ accepted (r_out r) = true.
Proof.
  intros Hd Ht Hc. destruct (deadline_kind_exit _ Hd) as (Hx & Hr).
  destruct (exception_at_exit _ Hx Hr Ht Hc) as (Hf & Ha). split; [exact Hf | apply Ha; discriminate].
Qed.

Theorem own_exception_is_unknown :
  (r_end r = KFin (RaiseException ek) \/ r_end r = KSwallowed CClose (RaiseException ek)) ->
  trail_done (r_pre r) = false -> cancel_done (r_pre r) = false ->
  final_status (r_out r) = Some (2, Some internal_msg) /\ accepted (r_out r) = true.
Proof.
  intros Hk Ht Hc.
  assert (Hx : exit_exn (r_end r) = Some EExc /\ reset_kind (r_end r) = false).
  { destruct Hk as [-> | ->]; destruct ek; split; reflexivity. }
  destruct Hx as (Hx & Hr). destruct (exception_at_exit _ Hx Hr Ht Hc) as (Hf & Ha).
  split; [exact Hf | apply Ha; discriminate].
Qed.

Theorem explicit_status_stands :
  trail_done (r_pre r) = true ->
  exists st m, In (SendTrailing st m false) (p_ops p) /\ final_status (r_out r) = Some (st, m).
Proof.
  intros Ht. destruct (sum_status call_summary) as (out1 & HK & _ & Hq).
  unfold exit_adds_nothing in Hq. rewrite Ht, orb_true_r in Hq. rewrite Hq. exact (K_status HK Ht).
Qed.

End Validated.

Lemma tclass_dec (a b : tclass) : {a = b} + {a <> b}.
Proof. decide equality. Qed.

Lemma accepted_well_formed out : accepted out = true -> well_formed out = true.
Proof. unfold accepted, well_formed. destruct (mon_run M0 out); trivial. Qed.

Theorem well_formed_always known hs e p :
  well_formed (r_out (run_call known hs e p)) = true.
Proof.
  destruct (validate (e_codec e) known hs) as [i h gs m|t] eqn:Ev.
  - apply accepted_well_formed, (unacceptable_rejected _ _ _ p _ _ _ _ Ev).
  - destruct (tclass_dec t TExpired) as [->|Hne].
    + destruct (expired_out known hs e p Ev) as (-> & _). destruct (e_eof e); reflexivity.
    + exact (sum_well_formed (call_summary _ _ _ p _ Ev Hne)).
Qed.

Theorem exactly_one_terminal_partial known hs e p :
  let r := run_call known hs e p in
  r_end r <> KHang -> reset_kind (r_end r) = false ->
  silent_exit (e_card e) (r_pre r) (exit_exn (r_end r)) = false ->
  accepted (r_out r) = true.
Proof.
  cbn zeta. destruct (validate (e_codec e) known hs) as [i h gs m|t] eqn:Ev.
  - intros _ _ _. apply (unacceptable_rejected _ _ _ p _ _ _ _ Ev).
  - destruct (tclass_dec t TExpired) as [->|Hne].
    + intros _ _ _. destruct (expired_out known hs e p Ev) as (-> & _). destruct (e_eof e); reflexivity.
    + exact (sum_one_terminal (call_summary _ _ _ p _ Ev Hne)).
Qed.

Theorem ok_only_if_normal known hs e p m :
  let r := run_call known hs e p in
  final_status (r_out r) = Some (status_ok, m) ->
  (returned_normally (r_end r) = true \/
   (exists m', In (SendTrailing status_ok m' false) (p_ops p)) \/
   (exists m', exit_exn (r_end r) = Some (EGRPC status_ok m'))) /\
  (server_streaming (e_card e) = false -> count_data (r_out r) = 1%nat).
Proof.
  cbn zeta. intros Hf.
  destruct (validate (e_codec e) known hs) as [i h gs am|t] eqn:Ev.
  { exfalso. destruct (validate_abort_error _ _ _ _ _ _ _ Ev) as (_ & Hn).
    destruct (unacceptable_rejected _ _ _ p _ _ _ _ Ev) as (Ho & _). rewrite Ho in Hf.
    destruct gs as [g|]; destruct (e_eof e); cbn in Hf; congruence. }
  destruct (tclass_dec t TExpired) as [->|Hne].
  { exfalso. destruct (expired_out known hs e p Ev) as (Ho & _). rewrite Ho in Hf.
    destruct (e_eof e); discriminate Hf. }
  pose proof (call_summary known hs e p t Ev Hne) as S. set (r := run_call known hs e p) in *.
  destruct (sum_status S) as (out1 & HK & Hcnt & Hq). rewrite Hcnt.
  destruct (exit_adds_nothing (r_end r) (r_pre r)) eqn:Eq.
  - (* the status is the handler's own: it sent trailers, and OK ones only after the message *)
    rewrite Hq in Hf.
    destruct (trail_done (r_pre r)) eqn:Et; [|rewrite (K_no_status HK eq_refl) in Hf; discriminate].
    destruct (K_status HK eq_refl) as (st & sm & Hin & Hfs). rewrite Hfs in Hf. injection Hf as -> ->.
    split; [right; left; eauto|]. intros Hu. apply (K_one_msg HK Hu), (K_ok_has_msg HK Hu Hfs).
  - apply orb_false_iff in Eq as [Eq _]. apply orb_false_iff in Eq as [Eq _]. apply orb_false_iff in Eq as [Eh _].
    rewrite Hq in Hf. unfold implicit_status in Hf.
    destruct (exit_exn (r_end r)) as [[st sm| |]|] eqn:Ex; try discriminate Hf.
    + destruct ((st =? status_ok) && negb (server_streaming (e_card e)) && negb (msg_done (r_pre r))) eqn:Eb;
        [discriminate Hf|].
      injection Hf as -> ->. split; [right; right; eauto|].
      intros Hu. rewrite Hu, Z.eqb_refl in Eb.
      destruct (msg_done (r_pre r)) eqn:Em; [exact (K_one_msg HK Hu eq_refl) | discriminate].
    + destruct (exit_exn_none _ Ex) as [Hn|[Hn|Hn]];
        [|destruct (sum_ran S Hn) | rewrite Hn in Eh; discriminate].
      split; [left; exact Hn|]. intros Hu. rewrite Hu in Hf.
      destruct (msg_done (r_pre r)) eqn:Em; [exact (K_one_msg HK Hu eq_refl) | discriminate].
Qed.

Theorem unary_at_most_one_message known hs e p :
  server_streaming (e_card e) = false -> (count_data (r_out (run_call known hs e p)) <= 1)%nat.
Proof.
  intros Hu.
  destruct (validate (e_codec e) known hs) as [i h gs am|t] eqn:Ev.
  - destruct (unacceptable_rejected _ _ _ p _ _ _ _ Ev) as (_ & _ & _ & -> & _). lia.
  - destruct (tclass_dec t TExpired) as [->|Hne].
    { destruct (expired_out known hs e p Ev) as (-> & _). destruct (e_eof e); cbn; lia. }
    destruct (sum_status (call_summary known hs e p t Ev Hne)) as (out1 & HK & -> & _).
    destruct (msg_done (r_pre (run_call known hs e p))) eqn:Em;
      [rewrite (K_one_msg HK Hu eq_refl) | rewrite (K_no_msg HK eq_refl)]; auto.
Qed.

Definition opt_is (o : option (list Z)) (v : list Z) : bool :=
  match o with Some x => zlist_eqb x v | None => false end.

(* the first check that fails decides *)
Definition validate_spec (cs : list Z) (known : list (list Z)) (hs : list header) : verdict :=
  if negb (opt_is (hget (s2z ":method") hs) (s2z "POST")) then VAbort 0 405 None None
  else match hget (s2z "content-type") hs with
  | None => VAbort 1 415 (Some 2) (Some (s2z "Missing content-type header"))
  | Some v =>
    if negb (content_type_ok cs v) then VAbort 2 415 (Some 2) (Some (s2z "Unacceptable content-type header"))
    else if negb (opt_is (hget (s2z "te") hs) (s2z "trailers")) then VAbort 3 400 (Some 2) (Some te_msg)
    else if negb (match hget (s2z ":path") hs with Some p => mem_str p known | None => false end)
         then VAbort 4 200 (Some 12) (Some (s2z "Method not found"))
    else match timeout_class hs with
         | TInvalid => VAbort 5 200 (Some 2) (Some (s2z "Invalid grpc-timeout header"))
         | t => if negb (metadata_ok hs) then VAbort 6 200 (Some 2) (Some (s2z "Invalid metadata"))
                else VAccept t
         end
  end.

Theorem validate_is_spec cs known hs : validate cs known hs = validate_spec cs known hs.
Proof.
  (* first_abort walks the seven rows of the table; the guard of each row is the test of validate_spec *)
  unfold validate, validate_spec, opt_is. rewrite abort_table_is. cbn [first_abort fst guard_fires].
  (* the two TryValueError rows are told apart by the name of the callee *)
  change (zlist_eqb (s2z "Deadline.from_headers") k_deadline_from_headers) with true.
  change (zlist_eqb (s2z "decode_metadata") k_deadline_from_headers) with false.
  change (zlist_eqb (s2z "decode_metadata") k_decode_metadata) with true.
  cbv iota.
  (* guard_fires spells two header names as code points *)
  change (s2z ":path") with k_path.
  change [99; 111; 110; 116; 101; 110; 116; 45; 116; 121; 112; 101] with (s2z "content-type").
  destruct (hget (s2z ":method") hs) as [x|]; [destruct (zlist_eqb x (s2z "POST"))|]; cbn [negb]; try reflexivity.
  destruct (hget (s2z "content-type") hs) as [v|]; [|reflexivity].
  destruct (content_type_ok cs v); cbn [negb]; [|reflexivity].
  destruct (hget (s2z "te") hs) as [y|]; [destruct (zlist_eqb y (s2z "trailers"))|]; cbn [negb]; try reflexivity.
  destruct (hget k_path hs) as [q|]; [destruct (mem_str q known)|]; cbn [negb]; try reflexivity.
  destruct (timeout_class hs); try reflexivity; destruct (metadata_ok hs); reflexivity.
Qed.

Theorem accepted_request_is_grpc cs known hs t :
  validate cs known hs = VAccept t ->
  opt_is (hget (s2z ":method") hs) (s2z "POST") = true /\
  (exists v, hget (s2z "content-type") hs = Some v /\ content_type_ok cs v = true) /\
  opt_is (hget (s2z "te") hs) (s2z "trailers") = true /\
  (exists q, hget (s2z ":path") hs = Some q /\ mem_str q known = true) /\
  timeout_class hs = t /\ t <> TInvalid /\ metadata_ok hs = true.
Proof.
  rewrite validate_is_spec. unfold validate_spec.
  destruct (opt_is (hget (s2z ":method") hs) (s2z "POST")); cbn [negb]; [|discriminate].
  destruct (hget (s2z "content-type") hs) as [v|]; [|discriminate].
  destruct (content_type_ok cs v) eqn:Ect; cbn [negb]; [|discriminate].
  destruct (opt_is (hget (s2z "te") hs) (s2z "trailers")); cbn [negb]; [|discriminate].
  destruct (hget (s2z ":path") hs) as [q|]; [|discriminate].
  destruct (mem_str q known) eqn:Eq; cbn [negb]; [|discriminate].
  destruct (timeout_class hs) eqn:Et; try discriminate;
    destruct (metadata_ok hs); cbn [negb]; try discriminate;
    intros [= <-]; repeat split; eauto; discriminate.
Qed.

Lemma partition_plus_spec v a b :
  partition_plus v = (a, b) -> v = a ++ 43 :: b \/ (v = a /\ b = []).
Proof.
  revert a b. induction v as [|c v IH]; intros a b H; cbn in H.
  - injection H as <- <-. right. auto.
  - destruct (c =? 43) eqn:E.
    + apply Z.eqb_eq in E. injection H as <- <-. subst c. left. reflexivity.
    + destruct (partition_plus v) as [a' b'] eqn:Ep. injection H as <- <-.
      destruct (IH _ _ eq_refl) as [->|[-> ->]]; [left|right]; auto.
Qed.

Theorem content_type_partition cs v :
  cs <> [] ->
  (content_type_ok cs v = true <->
   v = content_type_value cs \/
   (cs = proto_subtype /\ (v = s2z "application/grpc" \/ v = s2z "application/grpc+"))).
Proof.
  intros Hcs. split.
  - unfold content_type_ok. destruct (partition_plus v) as [a b] eqn:Ep. intros H.
    apply andb_true_iff in H as [Ha Hb]. apply zlist_eqb_eq in Ha. subst a.
    apply partition_plus_spec in Ep. apply zlist_eqb_eq in Hb. destruct b as [|c b].
    + right. split; [symmetry; exact Hb|]. destruct Ep as [->|[-> _]]; [right | left]; reflexivity.
    + left. subst cs. destruct Ep as [->|[_ E]]; [reflexivity | discriminate].
  - intros [->|[-> [->| ->]]]; try reflexivity.
    unfold content_type_ok, content_type_value. cbn [app]. cbn -[zlist_eqb].
    destruct cs as [|c r]; [congruence|].
    rewrite (zlist_eqb_refl (c :: r)). reflexivity.
Qed.

(* in particular the proto codec: exactly three strings; any other codec does NOT accept the bare form *)
Corollary content_type_partition_proto v :
  content_type_ok proto_subtype v = true <->
  v = s2z "application/grpc" \/ v = s2z "application/grpc+" \/ v = s2z "application/grpc+proto".
Proof.
  rewrite content_type_partition by discriminate. split.
  - intros [->|[_ [->| ->]]]; auto.
  - intros [->|[->| ->]]; [right; split; auto | right; split; auto | left; reflexivity].
Qed.

Corollary bare_content_type_needs_proto cs :
  cs <> [] -> cs <> proto_subtype -> content_type_ok cs (s2z "application/grpc") = false.
Proof.
  intros H1 H2. destruct (content_type_ok cs (s2z "application/grpc")) eqn:E; [|reflexivity].
  apply content_type_partition in E; [|exact H1]. destruct E as [E|[E _]]; [|congruence].
  exfalso. unfold content_type_value in E. apply (f_equal (@length Z)) in E. rewrite !app_length in E. cbn in E. lia.
Qed.

(* dict(headers): a later duplicate wins *)
Lemma hget_last k v hs : hget k (hs ++ [(k, v)]) = Some v.
Proof.
  induction hs as [|[k' v'] r IH]; cbn.
  - rewrite zlist_eqb_refl. reflexivity.
  - rewrite IH. reflexivity.
Qed.

Theorem timeout_grammar v z :
  decode_timeout_zero v = Some z ->
  exists ds u, v = ds ++ [u] /\ (1 <= length ds <= 8)%nat /\ forallb is_digit ds = true /\
               In u (s2z "HMSmun") /\ (z = true <-> forallb (fun c => c =? 48) ds = true).
Proof.
  unfold decode_timeout_zero. destruct (rev v) as [|u rd] eqn:Er; [discriminate|].
  destruct (is_unit u && forallb is_digit rd && (1 <=? Z.of_nat (length rd)) && (Z.of_nat (length rd) <=? 8)) eqn:E;
    [|discriminate].
  intros [= <-].
  repeat (apply andb_true_iff in E; destruct E as [E ?]).
  exists (rev rd), u. repeat split.
  - rewrite <- (rev_involutive v), Er. reflexivity.
  - rewrite rev_length. lia.
  - rewrite rev_length. lia.
  - rewrite forallb_forall in *. intros x Hx. apply in_rev in Hx. auto.
  - unfold is_unit in E. apply existsb_exists in E as ([c uv] & Hin & Hc). cbn in Hc. apply Z.eqb_eq in Hc. subst c.
    unfold units in Hin. cbn in Hin.
    repeat (destruct Hin as [Hin|Hin]; [inversion Hin; subst; cbn; tauto|]). destruct Hin.
  - intros Hz. rewrite forallb_forall in *. intros x Hx. apply in_rev in Hx. auto.
  - intros Hz. rewrite forallb_forall in *. intros x Hx. apply Hz. apply -> in_rev. exact Hx.
Qed.

Definition known_paths : list (list Z) := [s2z "/v.S/M"].

Definition request_with (ct : list Z) : list header :=
  [ (s2z ":method", s2z "POST"); (s2z ":scheme", s2z "http"); (s2z ":path", s2z "/v.S/M");
    (s2z ":authority", s2z "x"); (s2z "te", s2z "trailers"); (s2z "content-type", ct) ].

(* a probe: (cardinality, END_STREAM received, content subtype of the server's codec, content-type of the
   request, program, ending) *)
Definition golden_run (g : card * bool * list Z * list Z * list op * fin0) : list frame * list opres :=
  let '(c, eof, cs, ct, ops, f) := g in
  let r := run_call known_paths (request_with ct) (mkE c 1 false eof ENone None cs false) (mkP ops (Fin f) Honour) in
  (r_out r, r_results r).

(* requests of this form pass every check but the one on the content-type *)
Lemma validate_request_with cs ct :
  validate cs known_paths (request_with ct) =
  if content_type_ok cs ct then VAccept TNone
  else VAbort 2 415 (Some 2) (Some (s2z "Unacceptable content-type header")).
Proof.
  rewrite validate_is_spec. cbv -[content_type_ok]. destruct (content_type_ok cs ct); reflexivity.
Qed.

(* golden_run without the checks that do not depend on the probe: they cost more than the handler *)
Definition probe_run (g : card * bool * list Z * list Z * list op * fin0) : list frame * list opres :=
  let '(c, eof, cs, ct, ops, f) := g in
  if content_type_ok cs ct then
    let r := run_validated TNone (mkE c 1 false eof ENone None cs false) (mkP ops (Fin f) Honour) in
    (r_out r, r_results r)
  else golden_run g.

Lemma golden_run_eq g : golden_run g = probe_run g.
Proof.
  destruct g as [[[[[c eof] cs] ct] ops] f]. unfold probe_run.
  destruct (content_type_ok cs ct) eqn:E; [|reflexivity].
  unfold golden_run. rewrite (run_call_validated _ _ _ _ TNone); [reflexivity | | discriminate].
  cbn [e_codec]. rewrite validate_request_with, E. reflexivity.
Qed.

(* What the repository does on the probe programs of Gen/FactsC03Probes.v (regenerated from its BEHAVIOUR on every
   run: precondition refusals of the four sending calls, HEADERS / trailers vs trailers-only / RST_STREAM after
   non-OK while closable, h2 closing a half-closed stream after a refused send, part-way failures, the exit
   path for return / Exception / GRPCError / BaseException, x {UU, SS} x END_STREAM received or not) is what the
   model computes. *)
Theorem golden_probes_agree : map golden_run golden_in = golden_out.
Proof. rewrite (map_ext _ _ golden_run_eq). vm_compute. reflexivity. Qed.

Theorem golden_probes_nonempty : (100 <= length golden_in)%nat.
Proof. apply Nat.leb_le. vm_compute. reflexivity. Qed.

Definition good_request : list header :=
  [ (s2z ":method", s2z "POST"); (s2z ":scheme", s2z "http"); (s2z ":path", s2z "/v.S/M");
    (s2z ":authority", s2z "x"); (s2z "te", s2z "trailers"); (s2z "content-type", s2z "application/grpc") ].
Definition std_env (c : card) (x : extk) : env := mkE c 1 false true x None proto_subtype false.

(* The full-strength liveness claim is false of the faithful model.
   D4: a handler ending in a BaseException -- raised by itself, or the CancelledError of Server.close() --
   gets no terminal frame: HEADERS DATA and then silence. *)
Theorem exactly_one_terminal_refuted :
  exists known hs e p, let r := run_call known hs e p in
    r_end r <> KHang /\ reset_kind (r_end r) = false /\ accepted (r_out r) = false /\
    exit_exn (r_end r) = Some EBase /\ r_out r = [resp_headers; FData].
Proof.
  exists known_paths, good_request, (std_env UU ENone), (mkP [Recv; SendMessage false] (Fin RaiseBase) Honour).
  vm_compute. repeat split; discriminate.
Qed.

Theorem cancelled_by_close_refuted :
  exists known hs e p, let r := run_call known hs e p in
    r_end r = KCancelled CClose /\ accepted (r_out r) = false /\ r_out r = [resp_headers; FData].
Proof.
  exists known_paths, good_request, (std_env SS EClose), (mkP [Recv; SendMessage false] Wait Honour).
  vm_compute. repeat split.
Qed.

(* D42: GRPCError(Status.OK) from a unary handler that has sent no message is answered UNKNOWN *)
Example grpc_ok_without_message_answered :
  let r := run_call known_paths good_request (std_env UU ENone) (mkP [Recv] (Fin (RaiseGRPC status_ok None)) Honour) in
  r_end r = KFin (RaiseGRPC status_ok None) /\ accepted (r_out r) = true /\
  r_out r = [FHeaders 200 true (Some 2) (Some internal_msg) true].
Proof. vm_compute. repeat split. Qed.
