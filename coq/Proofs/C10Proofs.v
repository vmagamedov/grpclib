(* C10 -- lemmas about Model/Registry.v.  An op moves at most one call, by a local action of one
   endpoint (`tr`), or wakes / flushes all of them; the case analysis over all ops is done once, in
   `step_stepped` (the lemmas about one particular op -- a retry, a context exit, the trailers -- evaluate
   `step` on that op).  The invariant (per call `PC`, the two registries, the waiters, the held frames)
   is preserved by each shape of step, and everything else is read off the invariant. *)
From Coq Require Import ZArith List Bool Arith Lia.
From GV Require Import Model.Registry.
Import ListNotations.

Lemma nth_upd {A} (f : A -> A) l c d :
  nth_error (upd c f l) d =
  if Nat.eqb c d then option_map f (nth_error l d) else nth_error l d.
Proof.
  revert c d; induction l as [|x r IH]; intros [|c] [|d]; simpl; auto;
    destruct (Nat.eqb c d); reflexivity.
Qed.

Lemma nth_upd_same {A} (f : A -> A) l c k :
  nth_error l c = Some k -> nth_error (upd c f l) c = Some (f k).
Proof. intros E. rewrite nth_upd, Nat.eqb_refl, E. reflexivity. Qed.

Lemma nth_upd_other {A} (f : A -> A) l c d : c <> d -> nth_error (upd c f l) d = nth_error l d.
Proof. intros N. rewrite nth_upd. destruct (Nat.eqb_spec c d); [contradiction|reflexivity]. Qed.

Lemma upd_length {A} (f : A -> A) l c : length (upd c f l) = length l.
Proof. revert c; induction l; intros [|c]; simpl; auto. Qed.

Lemma count_upd {A} (p : A -> bool) f l c k :
  nth_error l c = Some k ->
  count p (upd c f l) + (if p k then 1 else 0) = count p l + (if p (f k) then 1 else 0).
Proof.
  revert c; induction l as [|x r IH]; intros [|c] H; simpl in *; try discriminate.
  - inversion H; subst. destruct (p k), (p (f k)); lia.
  - specialize (IH _ H). lia.
Qed.

Lemma count_upd_eq {A} (p : A -> bool) f l c k :
  nth_error l c = Some k -> p (f k) = p k -> count p (upd c f l) = count p l.
Proof. intros E H. pose proof (count_upd p f l c k E) as C. rewrite H in C. lia. Qed.

Lemma count_map_same {A} (p : A -> bool) f l :
  (forall k, p (f k) = p k) -> count p (map f l) = count p l.
Proof. intros H; induction l; simpl; [reflexivity|]. rewrite H, IHl; reflexivity. Qed.

Lemma count_zero {A} (p : A -> bool) l :
  count p l = 0 <-> (forall c k, nth_error l c = Some k -> p k = false).
Proof.
  induction l as [|x r IH]; simpl.
  - split; [intros _ [|c] k H; discriminate | reflexivity].
  - split.
    + intros H [|c] k E; simpl in E.
      * inversion E; subst. destruct (p k); [lia|reflexivity].
      * apply (proj1 IH) with c; [destruct (p x); lia | assumption].
    + intros H. rewrite (H 0 x eq_refl). simpl. apply IH. intros c k E. apply (H (S c)); assumption.
Qed.

Lemma count_le {A} (p q : A -> bool) l :
  (forall c k, nth_error l c = Some k -> p k = true -> q k = true) -> count p l <= count q l.
Proof.
  induction l as [|x r IH]; intros H; simpl; [lia|].
  assert (IHr : count p r <= count q r) by (apply IH; intros c k E; apply (H (S c) k E)).
  destruct (p x) eqn:Px; [rewrite (H 0 x eq_refl Px)|destruct (q x)]; lia.
Qed.

Lemma count_le_length {A} (p : A -> bool) l : count p l <= length l.
Proof. induction l; simpl; [lia|]. destruct (p a); lia. Qed.

Lemma in_remove_nat c x l : In x (remove_nat c l) <-> In x l /\ x <> c.
Proof.
  induction l as [|y r IH]; simpl; [tauto|].
  destruct (Nat.eqb_spec y c) as [->|N]; simpl; rewrite IH; intuition congruence.
Qed.

Lemma nodup_remove_nat c l : NoDup l -> NoDup (remove_nat c l).
Proof.
  induction 1 as [|y r Hn Hd IH]; simpl; [constructor|].
  destruct (Nat.eqb y c); [assumption|]. constructor; [|assumption].
  rewrite in_remove_nat; tauto.
Qed.

Lemma length_remove_nat_notin c l : ~ In c l -> remove_nat c l = l.
Proof.
  induction l as [|y r IH]; simpl; [reflexivity|]. intros H.
  destruct (Nat.eqb_spec y c) as [->|N]; [tauto|]. f_equal; tauto.
Qed.

Definition every (P : call -> Prop) (l : list call) : Prop :=
  forall c k, nth_error l c = Some k -> P k.

Lemma every_upd (P : call -> Prop) l c f k :
  every P l -> nth_error l c = Some k -> P (f k) -> every P (upd c f l).
Proof.
  intros A E F d k'. rewrite nth_upd. destruct (Nat.eqb_spec c d) as [<-|N]; [|apply A].
  rewrite E. simpl. intros [= <-]. exact F.
Qed.

Lemma every_map (P Q : call -> Prop) l g : (forall k, P k -> Q (g k)) -> every P l -> every Q (map g l).
Proof.
  intros G A d k. rewrite nth_error_map. destruct (nth_error l d) eqn:E; simpl; intros [= <-].
  apply G, (A d), E.
Qed.

Lemma every_repeat (P : call -> Prop) x n : P x -> every P (repeat x n).
Proof. intros H c k E. apply nth_error_In, repeat_spec in E. subst; exact H. Qed.

Definition has (p : call -> bool) (l : list call) (c : nat) : Prop :=
  exists k, nth_error l c = Some k /\ p k = true.

Lemma has_at p l c k : nth_error l c = Some k -> (has p l c <-> p k = true).
Proof.
  intros E; unfold has; rewrite E. split.
  - intros (k' & [= <-] & Y); assumption.
  - intros X; eexists; eauto.
Qed.

Lemma has_upd_at p l c f k :
  nth_error l c = Some k -> (has p (upd c f l) c <-> p (f k) = true).
Proof. intros E. apply has_at, nth_upd_same, E. Qed.

Lemma has_upd_other p l c f d : c <> d -> (has p (upd c f l) d <-> has p l d).
Proof. intros N. unfold has. rewrite nth_upd_other by assumption. tauto. Qed.

Lemma has_upd_eq p l c f k d :
  nth_error l c = Some k -> p (f k) = p k -> (has p (upd c f l) d <-> has p l d).
Proof.
  intros E Hp. destruct (Nat.eq_dec c d) as [<-|N]; [|apply has_upd_other; assumption].
  rewrite (has_upd_at p l c f k E), (has_at p l c k E), Hp. tauto.
Qed.

Lemma has_upd_same p l c f d :
  (forall k, p (f k) = p k) -> (has p (upd c f l) d <-> has p l d).
Proof.
  intros Hp. destruct (nth_error l c) as [k|] eqn:E; [apply (has_upd_eq p l c f k d E), Hp|].
  unfold has. rewrite nth_upd. destruct (Nat.eqb_spec c d) as [<-|]; [rewrite E|]; tauto.
Qed.

Lemma has_map_to (p q : call -> bool) l g d :
  (forall k, p k = true -> q (g k) = true) -> has p l d -> has q (map g l) d.
Proof.
  intros G (k & E & P). exists (g k). rewrite nth_error_map, E. split; [reflexivity|apply G, P].
Qed.

Lemma has_map p l g d : (forall k, p (g k) = p k) -> (has p (map g l) d <-> has p l d).
Proof.
  intros Hp. split; [|apply has_map_to; intros k H; rewrite Hp; exact H].
  intros (k' & E & P). rewrite nth_error_map in E.
  destruct (nth_error l d) as [k|] eqn:E0; simpl in E; inversion E; subst.
  exists k. split; [exact E0|rewrite <- Hp; exact P].
Qed.

Lemma open_is_op h : h2_open h = true -> h_op h = true /\ h2_closed h = false.
Proof. unfold h2_open. destruct (h_op h), (h2_closed h); simpl; intuition discriminate. Qed.

Lemma not_open_op_closed h : h2_open h = false -> h_op h = true -> h2_closed h = true.
Proof. unfold h2_open. intros H O; rewrite O in H; simpl in H. destruct (h2_closed h); auto. Qed.

Lemma closed_not_open h : h2_closed h = true -> h2_open h = false.
Proof. unfold h2_open; intros ->; destruct (h_op h); reflexivity. Qed.

Lemma op_false_not_open h : h_op h = false -> h2_open h = false.
Proof. unfold h2_open; intros ->; reflexivity. Qed.

Lemma idle_not_open : h2_open h2_idle = false.
Proof. reflexivity. Qed.

Lemma closed_cases h :
  h2_closed h = true -> h_sr h = true \/ h_rr h = true \/ (h_se h = true /\ h_re h = true).
Proof. unfold h2_closed. destruct (h_sr h), (h_rr h), (h_se h), (h_re h); simpl; auto; discriminate. Qed.

Lemma closed_of_sr h : h_sr h = true -> h2_closed h = true.
Proof. unfold h2_closed; intros ->; reflexivity. Qed.

Lemma closed_of_se_re h : h_se h = true -> h_re h = true -> h2_closed h = true.
Proof. unfold h2_closed; intros -> ->. destruct (h_sr h), (h_rr h); reflexivity. Qed.

Lemma closed_mono_re o se re sr rr :
  h2_closed (Build_h2s o se re sr rr) = true -> h2_closed (Build_h2s o se true sr rr) = true.
Proof. unfold h2_closed; cbn. destruct se, re, sr, rr; auto. Qed.

Lemma send_rst_not_open h : h2_open (h2_send_rst h) = false.
Proof.
  unfold h2_send_rst. destruct (h2_open h) eqn:E; [|assumption].
  unfold h2_open, h2_closed; cbn. destruct (h_op h); reflexivity.
Qed.

(* what a frame that arrives does to an endpoint's view *)
Definition h2_recv (f : fk) (h : h2s) : h2s :=
  match f with KHeaders _ => h | KEnd => h2_recv_end h | KRst => h2_recv_rst h end.

Record recv_spec (f : fk) (h h' : h2s) : Prop := {
  rv_op : h_op h' = h_op h;
  rv_se : h_se h' = h_se h;
  rv_sr : h_sr h' = h_sr h;
  rv_re_kept : h_re h = true -> h_re h' = true;
  rv_closed_kept : h2_closed h = true -> h2_closed h' = true;
  rv_re_from : h_re h' = true -> h_re h = true \/ f = KEnd;
  rv_rr_from : h_rr h' = true -> h_rr h = true \/ f = KRst;
  rv_end : h_op h = true -> f = KEnd -> h_re h' = true \/ h2_closed h' = true;
  rv_rst : h_op h = true -> f = KRst -> h2_closed h' = true;
  rv_ignored : h2_open h = false -> h' = h }.

Lemma recv_facts f h : recv_spec f h (h2_recv f h).
Proof.
  unfold h2_recv, h2_recv_end, h2_recv_rst. destruct (h2_open h) eqn:OP.
  - (* the frame counts: the stream is opened and not closed *)
    destruct (open_is_op _ OP) as [O C].
    destruct f; constructor; unfold h2_closed in *; cbn; rewrite ?orb_true_r; auto; congruence.
  - pose proof (not_open_op_closed _ OP). destruct f; constructor; auto.
Qed.

Record trailers_spec (nonok : bool) (sh h : h2s) (fs : list fk) : Prop := {
  tl_op : h_op h = true;
  tl_re : h_re h = h_re sh;
  tl_rr : h_rr h = h_rr sh;
  tl_se : h_se h = true;
  tl_sr_kept : h_sr sh = true -> h_sr h = true;
  tl_closed_kept : h2_closed sh = true -> h2_closed h = true;
  tl_rst_sent : In KRst fs -> h_sr h = true;
  tl_nonok : nonok = true -> h2_open h = false;
  tl_ok : nonok = false -> fs = [KEnd];
  tl_end : In KEnd fs }.

Lemma srv_trailers_facts nonok sh h fs :
  h2_open sh = true -> h_se sh = false -> srv_trailers nonok sh = (h, fs) -> trailers_spec nonok sh h fs.
Proof.
  unfold srv_trailers, h2_send_end, h2_send_rst. intros OP SE. rewrite OP.
  destruct sh as [o se re sr rr]; cbn in *; subst.
  unfold h2_open, h2_closed in *; cbn in *.
  destruct nonok, o, re, sr, rr; cbn in *; try discriminate; intros E; inversion E; subst;
    constructor; cbn; auto; try discriminate; try (intros I; simpl in I; intuition discriminate).
Qed.

Definition no_hdr (q : list fk) : Prop := forall es, ~ In (KHeaders es) q.

Lemma no_hdr_nil : no_hdr [].
Proof. intros es H; inversion H. Qed.

Lemma no_hdr_one f : match f with KHeaders _ => False | _ => True end -> no_hdr [f].
Proof. intros H es [->|[]]; exact H. Qed.

Lemma no_hdr_app q fs : no_hdr q -> no_hdr fs -> no_hdr (q ++ fs).
Proof. intros H N es I. apply in_app_or in I. destruct I as [I|I]; [exact (H es I)|exact (N es I)]. Qed.

Lemma no_hdr_tl f q : no_hdr (f :: q) -> no_hdr q.
Proof. intros H es I. apply (H es). right; assumption. Qed.

(* the per-call invariant: how the two endpoints' views of one stream, the frames in flight and the
   phases of the client call and of the handler hang together *)
Record PC (k : call) : Prop := {
  cl_idle : h_op (k_ch k) = false -> k_ch k = h2_idle;
  sv_idle : h_op (k_sh k) = false -> k_sh k = h2_idle;
  pending_unop : is_pending k = true -> h_op (k_ch k) = false;
  opened_op : k_cph k = COpened -> h_op (k_ch k) = true;
  exited_shut : k_cph k = CExited -> h2_open (k_ch k) = false;
  unop_quiet : h_op (k_ch k) = false -> k_qc k = [] /\ h_op (k_sh k) = false;
  sv_unseen : h_op (k_sh k) = false ->
       k_qs k = [] /\ k_sph k = SNone /\
       (h_op (k_ch k) = true -> exists es r, k_qc k = KHeaders es :: r /\ no_hdr r);
  sv_seen : h_op (k_sh k) = true -> no_hdr (k_qc k) /\ k_sph k <> SNone;
  end_acc : h_se (k_ch k) = true ->
       In KEnd (k_qc k) \/ In (KHeaders true) (k_qc k) \/ h_re (k_sh k) = true \/
       h2_closed (k_sh k) = true;
  rst_acc : h_sr (k_ch k) = true -> k_held k = true \/ In KRst (k_qc k) \/ h2_closed (k_sh k) = true;
  rr_sent : h_rr (k_ch k) = true -> h_sr (k_sh k) = true;
  re_sent : h_re (k_ch k) = true -> h_se (k_sh k) = true;
  qs_rst_sent : In KRst (k_qs k) -> h_sr (k_sh k) = true;
  qs_end_sent : In KEnd (k_qs k) -> h_se (k_sh k) = true;
  clean_exit : k_sph k = SExited false -> h_se (k_sh k) = true \/ h2_closed (k_sh k) = true;
  trail_se : k_trail k = h_se (k_sh k);
  cancel_sr : k_cancel k = true -> h_sr (k_sh k) = true;
  held_sr : k_held k = true -> h_sr (k_ch k) = true
}.

Lemma PC_call0 : PC call0.
Proof.
  constructor; simpl; intros; try discriminate; try tauto; try contradiction.
  repeat split; auto; discriminate.
Qed.

Ltac open_pc H :=
  destruct H as [Cl_idle Sv_idle Pending_unop Opened_op Exited_shut Unop_quiet Sv_unseen Sv_seen End_acc Rst_acc Rr_sent Re_sent Qs_rst_sent Qs_end_sent Clean_exit Trail_se Cancel_sr Held_sr].

Lemma running_op k : PC k -> k_sph k = SRunning -> h_op (k_sh k) = true.
Proof.
  intros H R. destruct (h_op (k_sh k)) eqn:E; auto.
  destruct (sv_unseen k H E) as (_ & A & _). congruence.
Qed.

Lemma srv_op_cl_op k : PC k -> h_op (k_sh k) = true -> h_op (k_ch k) = true.
Proof. intros H SO. destruct (h_op (k_ch k)) eqn:E; auto. destruct (unop_quiet k H E) as [_ A]. congruence. Qed.

(* only three fields mention the client phase *)
Lemma PC_set_cph k p :
  PC k ->
  match p with
  | COpened => h_op (k_ch k) = true
  | CExited => h2_open (k_ch k) = false
  | _ => h_op (k_ch k) = false
  end -> PC (set_cph p k).
Proof.
  intros H Hp. open_pc H. constructor; cbn; auto; intros X; destruct p; auto; discriminate.
Qed.

Lemma PC_wake k : PC k -> PC (wake k).
Proof.
  intros H. unfold wake. destruct (k_cph k) eqn:E; try assumption.
  apply PC_set_cph; auto. apply (pending_unop k H). unfold is_pending; rewrite E; reflexivity.
Qed.

Definition is_nw (k : call) : bool := match k_cph k with CNew | CWoken => true | _ => false end.

Lemma nw_pending k : is_nw k = true -> is_pending k = true.
Proof. unfold is_nw, is_pending. destruct (k_cph k); auto. Qed.

Lemma nw_phase k : is_nw k = true <-> k_cph k = CWoken \/ k_cph k = CNew.
Proof. unfold is_nw; destruct (k_cph k); intuition discriminate. Qed.

(* send_request succeeds: the client's h2 opens the stream and the request HEADERS are written *)
Definition open_call (es : bool) (k : call) : call :=
  set_cph COpened (cl_act (h2_new es false) [KHeaders es] k).

Lemma PC_open k es : PC k -> is_pending k = true -> PC (open_call es k).
Proof.
  intros H P. pose proof (pending_unop k H P) as O.
  destruct (unop_quiet k H O) as [Q SO]. destruct (sv_unseen k H SO) as (QS & SP & _).
  pose proof (sv_idle k H SO) as SI. open_pc H.
  constructor; cbn; rewrite ?Q, ?QS; cbn; intros; auto; try congruence; try contradiction.
  - (* sv_unseen *) repeat split; auto. intros _. exists es, []. split; [reflexivity|apply no_hdr_nil].
  - (* end_acc *) subst es. auto.
  - apply Held_sr in H. rewrite (Cl_idle O) in H. discriminate.
Qed.

(* the client endpoint changes its h2 view of an opened stream (never what it has received), writes
   END_STREAM / RST_STREAM frames, and holds back or releases an RST_STREAM *)
Lemma PC_cl k h fs hd :
  PC k -> h_op (k_ch k) = true ->
  h_op h = true -> h_re h = h_re (k_ch k) -> h_rr h = h_rr (k_ch k) -> no_hdr fs ->
  (h2_open (k_ch k) = false -> h2_open h = false) ->
  (h_se h = true -> h_se (k_ch k) = true \/ In KEnd fs) ->
  (h_sr h = true -> h_sr (k_ch k) = true \/ In KRst fs \/ hd = true) ->
  (k_held k = true -> In KRst fs \/ hd = true) ->
  (hd = true -> h_sr h = true) ->
  PC (set_held hd (cl_act h fs k)).
Proof.
  intros H O HO HRE HRR NH HOP HSE HSR HH HD. open_pc H.
  constructor; cbn; intros; auto; try congruence.
  - rewrite Pending_unop in O; [discriminate|assumption].
  - destruct (Sv_unseen H) as (A & B & C). repeat split; auto. intros _.
    destruct (C O) as (es & r & E & N). exists es, (r ++ fs). rewrite E. split; [reflexivity|].
    apply no_hdr_app; assumption.
  - destruct (Sv_seen H) as [A B]. split; [apply no_hdr_app|]; assumption.
  - destruct (HSE H) as [X|X]; [destruct (End_acc X) as [A|[A|A]]|]; auto 6 using in_or_app.
  - destruct (HSR H) as [X|[X|X]]; [destruct (Rst_acc X) as [A|[A|A]]; [destruct (HH A)|..]|..];
      auto 6 using in_or_app.
  - apply Rr_sent; congruence.
  - apply Re_sent; congruence.
Qed.

Lemma set_held_id k : set_held (k_held k) k = k.
Proof. destruct k; reflexivity. Qed.

Lemma held_op k : PC k -> k_held k = true -> h_op (k_ch k) = true.
Proof.
  intros H HD. destruct (h_op (k_ch k)) eqn:E; auto.
  pose proof (held_sr k H HD) as SR. rewrite (cl_idle k H E) in SR. discriminate.
Qed.

Lemma PC_flush1 k : PC k -> PC (flush1 k).
Proof.
  intros H. unfold flush1. destruct (k_held k) eqn:HD; [|assumption].
  pose proof (held_op k H HD). apply PC_cl; simpl; auto; try discriminate.
  apply no_hdr_one; exact I.
Qed.

(* Stream.__aexit__ of an opened call: reset_nowait if still closable -- h2 closes the stream at once, the
   frame is written, or held back while writing is paused -- then the call is released *)
Definition exit_call (paused : bool) (k : call) : call :=
  set_cph CExited
    (set_held (k_held k || (h2_open (k_ch k) && paused))
       (cl_act (h2_send_rst (k_ch k)) (if h2_open (k_ch k) && negb paused then [KRst] else []) k)).

Lemma PC_cexit k p : PC k -> k_cph k = COpened -> PC (exit_call p k).
Proof.
  intros H Ph. pose proof (opened_op k H Ph) as O.
  apply PC_set_cph; [|apply send_rst_not_open].
  apply PC_cl; auto; unfold h2_send_rst; destruct (h2_open (k_ch k)) eqn:OP; destruct p; cbn;
    rewrite ?orb_true_r, ?orb_false_r; auto using no_hdr_nil, (held_sr k H); try discriminate.
  apply no_hdr_one; exact I.
Qed.

Lemma PC_srv_recv k f r : PC k -> k_qc k = f :: r -> PC (fst (srv_recv f k)).
Proof.
  intros H Q.
  assert (CO : h_op (k_ch k) = true).
  { destruct (h_op (k_ch k)) eqn:E; auto. destruct (unop_quiet k H E) as [A _]. rewrite A in Q; discriminate. }
  destruct (h_op (k_sh k)) eqn:SO.
  - (* the stream is known to the server: END_STREAM or RST_STREAM *)
    destruct (sv_seen k H SO) as [NH SP]. rewrite Q in NH.
    assert (SR : fst (srv_recv f k) =
                 Build_call (k_cph k) (k_ch k) (k_sph k) (h2_recv f (k_sh k)) (k_trail k) (k_cancel k)
                            (tl (k_qc k)) (k_qs k) (k_held k)).
    { unfold srv_recv. rewrite SO. destruct f; reflexivity. }
    rewrite SR. destruct (recv_facts f (k_sh k)) as [Eop Ese Esr ? ? _ _ ? ? _].
    open_pc H. rewrite Q in *. cbn [tl].
    constructor; cbn -[h2_recv h2_closed h2_open]; intros; auto;
      rewrite ?Eop, ?Ese, ?Esr in *; try congruence; auto.
    + (* sv_seen *) split; [eapply no_hdr_tl; eauto|auto].
    + destruct (End_acc H) as [[A|A]|[[A|A]|[A|A]]]; auto. destruct (NH true). left. exact A.
    + destruct (Rst_acc H) as [A|[[A|A]|A]]; auto.
    + destruct (Clean_exit H) as [A|A]; auto.
  - (* the stream is new to the server: only the request HEADERS can be first *)
    destruct (sv_unseen k H SO) as (QS & SP & HD). destruct (HD CO) as (es & r0 & E & NH).
    rewrite Q in E. inversion E; subst f r0. pose proof (sv_idle k H SO) as SI.
    open_pc H. unfold srv_recv. rewrite SO. cbn. rewrite Q, SI, QS in *. cbn in *.
    constructor; cbn; intros; try congruence; auto.
    + (* sv_seen *) split; [assumption|discriminate].
    + destruct (End_acc H) as [[A|A]|[[A|A]|[A|A]]]; try discriminate; auto.
      inversion A; auto.
    + destruct (Rst_acc H) as [A|[[A|A]|A]]; try discriminate; auto.
Qed.

Lemma PC_cl_recv k f r : PC k -> k_qs k = f :: r -> PC (cl_recv f k).
Proof.
  intros H Q.
  assert (SO : h_op (k_sh k) = true).
  { destruct (h_op (k_sh k)) eqn:E; auto. destruct (sv_unseen k H E) as [A _]. rewrite A in Q; discriminate. }
  pose proof (srv_op_cl_op k H SO) as CO.
  destruct (recv_facts f (k_ch k)) as [Eop Ese Esr _ _ Ere Err _ _ Eign].
  open_pc H. unfold cl_recv. rewrite Q in *.
  constructor; cbn -[h2_recv_end h2_recv_rst h2_closed h2_open]; fold (h2_recv f (k_ch k)); intros; auto;
    rewrite ?Eop, ?Ese, ?Esr in *; try congruence; auto.
  - (* exited_shut *) rewrite Eign; auto.
  - destruct (Err H) as [X| ->]; [auto|apply Qs_rst_sent; left; reflexivity].
  - destruct (Ere H) as [X| ->]; [auto|apply Qs_end_sent; left; reflexivity].
  - apply Qs_rst_sent; right; assumption.
  - apply Qs_end_sent; right; assumption.
Qed.

(* the server endpoint sends something (or nothing) and moves its handler phase *)
Lemma PC_sv k p h tr cn fs :
  PC k -> h_op (k_sh k) = true ->
  h_op h = true -> h_re h = h_re (k_sh k) -> h_rr h = h_rr (k_sh k) ->
  (h_se (k_sh k) = true -> h_se h = true) -> (h_sr (k_sh k) = true -> h_sr h = true) ->
  (h2_closed (k_sh k) = true -> h2_closed h = true) ->
  (In KEnd fs -> h_se h = true) -> (In KRst fs -> h_sr h = true) ->
  tr = h_se h -> (cn = true -> h_sr h = true) ->
  p <> SNone -> (p = SExited false -> h_se h = true \/ h2_closed h = true) ->
  PC (sv_act p h tr cn fs k).
Proof.
  intros H SO HO HRE HRR HSE HSR HCL FE FR HT HCN PN PX. open_pc H.
  constructor; cbn -[h2_closed h2_open]; intros; auto; try congruence.
  - destruct (Unop_quiet H) as [_ A]; congruence.
  - split; [apply Sv_seen; assumption|assumption].
  - destruct (End_acc H) as [A|[A|[A|A]]]; auto. right; right; left; congruence.
  - destruct (Rst_acc H) as [A|[A|A]]; auto.
  - (* qs_rst_sent *) apply in_app_or in H; destruct H; auto.
  - (* qs_end_sent *) apply in_app_or in H; destruct H; auto.
Qed.

Lemma PC_trailers k p nonok h fs :
  PC k -> k_sph k = SRunning -> k_trail k = false -> h2_open (k_sh k) = true ->
  srv_trailers nonok (k_sh k) = (h, fs) -> p <> SNone -> PC (sv_act p h true (k_cancel k) fs k).
Proof.
  intros P R T OP ST PN.
  rewrite (trail_se k P) in T.
  pose proof (srv_trailers_facts _ _ _ _ OP T ST) as TL. pose proof (tl_sr_kept _ _ _ _ TL) as SR. destruct TL.
  apply PC_sv; auto using running_op. intros X. apply SR, (cancel_sr k P X).
Qed.

(* the end of request_handler: server Stream.__aexit__ sends nothing for a BaseException, nothing when
   trailers were sent / the stream was cancelled / h2 would refuse; otherwise the trailers *)
Definition silent (x : exitk) (k : call) : bool :=
  match x with KBase => true | _ => k_trail k || k_cancel k || negb (h2_open (k_sh k)) end.
Definition last_words (x : exitk) (k : call) : h2s * list fk :=
  if silent x k then (k_sh k, []) else srv_trailers (match x with KErr => true | _ => false end) (k_sh k).

Lemma not_silent x k : silent x k = false -> k_trail k = false /\ h2_open (k_sh k) = true.
Proof.
  unfold silent. destruct x, (k_trail k), (k_cancel k), (h2_open (k_sh k)); simpl; auto; discriminate.
Qed.

Lemma silent_cases x k :
  silent x k = true -> x = KBase \/ k_trail k = true \/ k_cancel k = true \/ h2_open (k_sh k) = false.
Proof. unfold silent. destruct x, (k_trail k), (k_cancel k), (h2_open (k_sh k)); auto. Qed.

(* what an action does to a registry (EventsProcessor.streams) *)
Inductive reg_ev := Keep | Register | Release.
Definition reg_do (e : reg_ev) (c : nat) (reg : list nat) : list nat :=
  match e with Keep => reg | Register => c :: reg | Release => remove_nat c reg end.

(* [tr full k ec es k']: call k becomes k' by a local action of one endpoint (full: the client's h2 would
   refuse a new stream); ec, es say what the action does to the client's and the server's registry.
   The context exit of an opened call is not here: it also wakes the other calls. *)
Inductive tr (full : Prop) (k : call) : reg_ev -> reg_ev -> call -> Prop :=
| tr_open es : is_nw k = true -> tr full k Register Keep (open_call es k)
| tr_block : is_nw k = true -> full -> tr full k Keep Keep (set_cph CWaiting k)
| tr_leave : is_pending k = true -> tr full k Keep Keep (set_cph CExited k)
| tr_csend (rst : bool) :
    k_cph k = COpened -> h2_open (k_ch k) = true -> (rst = false -> h_se (k_ch k) = false) ->
    tr full k Keep Keep (cl_act (if rst then h2_send_rst (k_ch k) else h2_send_end (k_ch k))
                                [if rst then KRst else KEnd] k)
| tr_srv_recv f r :
    k_qc k = f :: r -> tr full k Keep (if snd (srv_recv f k) then Register else Keep) (fst (srv_recv f k))
| tr_cl_recv f r : k_qs k = f :: r -> tr full k Keep Keep (cl_recv f k)
| tr_trailers nonok h fs :
    k_sph k = SRunning -> k_trail k = false -> h2_open (k_sh k) = true ->
    srv_trailers nonok (k_sh k) = (h, fs) -> tr full k Keep Keep (sv_act SRunning h true (k_cancel k) fs k)
| tr_scancel :
    k_sph k = SRunning -> h2_open (k_sh k) = true ->
    tr full k Keep Keep (sv_act SRunning (h2_send_rst (k_sh k)) (k_trail k) true [KRst] k)
| tr_sexit x h fs :
    k_sph k = SRunning -> last_words x k = (h, fs) ->
    tr full k Keep Release (sv_act (SExited (h2_open h && negb (h_se h))) h
                                   (k_trail k || negb (silent x k)) (k_cancel k) fs k).

Lemma tr_PC full k ec es k' : tr full k ec es k' -> PC k -> PC k'.
Proof.
  destruct 1 as [es|NW _|PK|rst Ph OP SE|f r Q|f r Q|nonok h fs R T OP ST|R OP|x h fs R LW];
    intros P.
  - apply PC_open, nw_pending; assumption.
  - apply PC_set_cph, (pending_unop k P), nw_pending; assumption.
  - apply PC_set_cph; [|apply op_false_not_open, (pending_unop k P)]; assumption.
  - (* the client sends END_STREAM / RST_STREAM on a stream that still counts *)
    destruct (open_is_op _ OP) as [O _]. unfold h2_send_end, h2_send_rst. rewrite OP.
    destruct rst; apply (PC_cl k _ _ (k_held k)); cbn; auto; try discriminate;
      try (apply no_hdr_one; exact I); try (apply (held_sr k P)); intros X; auto; congruence.
  - eapply PC_srv_recv; eassumption.
  - eapply PC_cl_recv; eassumption.
  - apply PC_trailers with nonok; auto. discriminate.
  - (* the server resets the stream *)
    destruct (open_is_op _ OP) as [O CL].
    apply PC_sv; auto; try discriminate; unfold h2_send_rst; rewrite OP; cbn; auto.
    + intros [X|[]]; discriminate.
    + apply (trail_se k P).
  - (* the handler ends *)
    pose proof (running_op k P R) as SO. unfold last_words in LW.
    destruct (silent x k) eqn:SI; simpl.
    + (* nothing is sent *)
      injection LW as <- <-. apply PC_sv; auto; try discriminate.
      * rewrite orb_false_r. apply (trail_se k P).
      * apply (cancel_sr k P).
      * intros [= L]. apply andb_false_iff in L. destruct L as [L|L].
        -- right. apply not_open_op_closed; auto.
        -- left. apply negb_false_iff in L; assumption.
    + (* the trailers are sent first *)
      destruct (not_silent x k SI) as [T OP]. rewrite T.
      apply PC_trailers with (match x with KErr => true | _ => false end); auto. discriminate.
Qed.

(* [stepped s o s']: the five shapes of `fst (step s o)`.  The update f of call c is the model's own
   function; it is written in terms of the call k found at c, so only f k is described. *)
Inductive stepped (s : state) (o : op) : state -> Prop :=
| st_same fl q p :
    p = cpaused s \/ p = true -> stepped s o (Build_state (calls s) (creg s) (sreg s) (maxc s) fl q p)
| st_settings m q :
    stepped s o (Build_state (map wake (calls s)) (creg s) (sreg s) m true q (cpaused s))
| st_flush p :
    stepped s o (Build_state (map flush1 (calls s)) (creg s) (sreg s) (maxc s) (flag s) (sq s) p)
| st_exit c k f :
    o = CExit c -> nth_error (calls s) c = Some k -> k_cph k = COpened -> f k = exit_call (cpaused s) k ->
    stepped s o (Build_state (map wake (upd c f (calls s))) (remove_nat c (creg s)) (sreg s) (maxc s)
                             true (sq s) (cpaused s))
| st_call c k f ec es fl :
    nth_error (calls s) c = Some k -> tr (maxc s <= Z.of_nat (open_out s))%Z k ec es (f k) ->
    (k_cph (f k) = k_cph k \/ o = CExit c \/ exists b, o = COpenTry c b) ->
    stepped s o (Build_state (upd c f (calls s)) (reg_do ec c (creg s)) (reg_do es c (sreg s)) (maxc s)
                             fl (sq s) (cpaused s)).

Lemma st_skip s o : stepped s o s.
Proof. destruct s. apply st_same. auto. Qed.

(* COpenTry: a call that is not in the retry loop is skipped, the others open or block *)
Inductive tried (s : state) (c : nat) (es : bool) : state * out -> Prop :=
| tried_skip : ~ has is_nw (calls s) c -> tried s c es (s, OSkip)
| tried_open k :
    nth_error (calls s) c = Some k -> is_nw k = true -> (Z.of_nat (open_out s) < maxc s)%Z ->
    tried s c es (Build_state (upd c (open_call es) (calls s)) (c :: creg s) (sreg s) (maxc s) (flag s)
                              (sq s) (cpaused s), OOpened)
| tried_block k :
    nth_error (calls s) c = Some k -> is_nw k = true -> (maxc s <= Z.of_nat (open_out s))%Z ->
    tried s c es (Build_state (upd c (set_cph CWaiting) (calls s)) (creg s) (sreg s) (maxc s) false
                              (sq s) (cpaused s), OBlocked).

Lemma try_nw s c k es :
  nth_error (calls s) c = Some k -> is_nw k = true ->
  step s (COpenTry c es) =
  if (Z.of_nat (open_out s) <? maxc s)%Z
  then (Build_state (upd c (open_call es) (calls s)) (c :: creg s) (sreg s) (maxc s) (flag s) (sq s)
                    (cpaused s), OOpened)
  else (Build_state (upd c (set_cph CWaiting) (calls s)) (creg s) (sreg s) (maxc s) false (sq s)
                    (cpaused s), OBlocked).
Proof.
  intros E NW. simpl. rewrite E. unfold is_nw in NW. destruct (k_cph k); try discriminate; reflexivity.
Qed.

Lemma step_try s c es : tried s c es (step s (COpenTry c es)).
Proof.
  destruct (nth_error (calls s) c) as [k|] eqn:E; [destruct (is_nw k) eqn:NW|].
  - rewrite (try_nw s c k es E NW).
    destruct (Z.ltb_spec (Z.of_nat (open_out s)) (maxc s)); [apply tried_open with k|apply tried_block with k];
      assumption.
  - assert (N : ~ has is_nw (calls s) c) by (intros H; apply (has_at _ _ _ _ E) in H; congruence).
    simpl. rewrite E. unfold is_nw in NW. revert NW. destruct (k_cph k); intros; try discriminate;
      apply tried_skip, N.
  - simpl. rewrite E. apply tried_skip. intros (k & E' & _). congruence.
Qed.

Lemma srv_recv_client f k :
  k_cph (fst (srv_recv f k)) = k_cph k /\ k_held (fst (srv_recv f k)) = k_held k.
Proof. unfold srv_recv. destruct f; [destruct (h_op (k_sh k))| |]; auto. Qed.

Lemma step_stepped s o : stepped s o (fst (step s o)).
Proof.
  destruct o as [c es|c|c|c|c|c| |c nonok|c|c x|n| | | ].
  { (* COpenTry *) destruct (step_try s c es) as [N|k E NW LT|k E NW GE]; cbn [fst].
    - apply st_skip.
    - apply (st_call _ _ c k _ Register Keep); eauto using tr.
    - apply (st_call _ _ c k _ Keep Keep); eauto using tr. }
  all: simpl; try (destruct (nth_error (calls s) c) as [k|] eqn:E; [|apply st_skip]).
  - (* CSendEnd *) destruct (k_cph k) eqn:Ph; try apply st_skip.
    destruct (h2_open (k_ch k) && negb (h_se (k_ch k))) eqn:G; [|apply st_skip].
    apply andb_prop in G; destruct G as [G1 G2]. apply negb_true_iff in G2.
    apply (st_call _ _ c k _ Keep Keep); auto. apply (tr_csend _ k false); auto.
  - (* CCancel *) destruct (k_cph k) eqn:Ph; try apply st_skip.
    destruct (h2_open (k_ch k)) eqn:G; [|apply st_skip].
    apply (st_call _ _ c k _ Keep Keep); auto. apply (tr_csend _ k true); auto. discriminate.
  - (* CExit *) destruct (k_cph k) eqn:Ph; simpl;
      try (apply (st_call _ _ c k _ Keep Keep); auto; apply tr_leave; unfold is_pending; rewrite Ph; reflexivity).
    + (* COpened *) eapply st_exit; eauto; reflexivity.
    + (* CExited *) apply st_skip.
  - (* DeliverC2S *) destruct (k_qc k) as [|f r] eqn:Q; [apply st_skip|].
    pose proof (tr_srv_recv (maxc s <= Z.of_nat (open_out s))%Z k f r Q) as T.
    destruct (srv_recv_client f k) as [C _].
    destruct (srv_recv f k) as [k' [|]]; simpl in *;
      [apply (st_call _ _ c k _ Keep Register)|apply (st_call _ _ c k _ Keep Keep)]; auto.
  - (* DeliverS2C *) destruct (k_qs k) as [|f r] eqn:Q; [apply st_skip|].
    apply (st_call _ _ c k _ Keep Keep); eauto using tr.
  - (* DeliverSettings *) destruct (sq s); [apply st_skip|apply st_settings].
  - (* STrailers *) destruct (k_sph k) eqn:R; try apply st_skip.
    destruct (k_trail k) eqn:T; [apply st_skip|]. destruct (h2_open (k_sh k)) eqn:OP; [|apply st_skip].
    simpl. destruct (srv_trailers nonok (k_sh k)) as [h fs] eqn:ST. simpl.
    apply (st_call _ _ c k _ Keep Keep); eauto using tr.
  - (* SCancel *) destruct (k_sph k) eqn:R; try apply st_skip.
    destruct (k_cancel k); [apply st_skip|]. destruct (h2_open (k_sh k)) eqn:OP; [|apply st_skip].
    apply (st_call _ _ c k _ Keep Keep); eauto using tr.
  - (* SExit *) destruct (k_sph k) eqn:R; try apply st_skip.
    fold (silent x k). fold (last_words x k). destruct (last_words x k) as [h fs] eqn:LW. simpl.
    apply (st_call _ _ c k _ Keep Release); auto. apply tr_sexit; assumption.
  - (* SSettings *) apply st_same; auto.
  - (* CPause *) apply st_same; auto.
  - (* CResume *) apply st_flush.
  - (* CFlush *) apply st_flush.
Qed.

Definition tracks (p : call -> bool) (reg : list nat) (l : list call) : Prop :=
  NoDup reg /\ forall c, In c reg <-> has p l c.

Definition ev_ok (p : call -> bool) (e : reg_ev) (k k' : call) : Prop :=
  match e with
  | Keep => p k' = p k
  | Register => p k = false /\ p k' = true
  | Release => p k' = false
  end.

Lemma tracks_upd p reg l c k f e :
  tracks p reg l -> nth_error l c = Some k -> ev_ok p e k (f k) -> tracks p (reg_do e c reg) (upd c f l).
Proof.
  intros [ND R] E V.
  assert (U : forall d, has p (upd c f l) d <-> if Nat.eqb c d then p (f k) = true else has p l d).
  { intros d. destruct (Nat.eqb_spec c d) as [<-|N]; [apply has_upd_at, E|apply has_upd_other, N]. }
  assert (C : In c reg <-> p k = true) by (rewrite R; apply has_at, E).
  destruct e; simpl in *.
  - split; [assumption|]. intros d. rewrite R. symmetry. apply has_upd_eq with k; assumption.
  - destruct V as [V1 V2]. split; [constructor; [rewrite C; congruence|assumption]|].
    intros d. rewrite U. simpl. destruct (Nat.eqb_spec c d); rewrite <- ?R; intuition.
  - split; [apply nodup_remove_nat, ND|]. intros d. rewrite in_remove_nat, U, R.
    destruct (Nat.eqb_spec c d) as [<-|N]; [rewrite V|]; intuition congruence.
Qed.

Lemma tracks_map p reg l g : (forall k, p (g k) = p k) -> tracks p reg l -> tracks p reg (map g l).
Proof. intros G [ND R]. split; [assumption|]. intros c. rewrite has_map; auto. Qed.

Lemma tracks_none p reg l : tracks p reg l -> every (fun k => p k = false) l -> reg = [].
Proof.
  intros [_ R] N. destruct reg as [|c r]; [reflexivity|].
  destruct (proj1 (R c) (or_introl eq_refl)) as (k & E & P). rewrite (N c k E) in P. discriminate.
Qed.

Lemma tracks_nil p l : every (fun k => p k = false) l -> tracks p [] l.
Proof.
  intros N. split; [constructor|]. intros c. split; [intros []|].
  intros (k & E & P). rewrite (N c k E) in P. discriminate.
Qed.

Definition closed_opened (k : call) : bool := is_opened k && h2_closed (k_ch k).

(* a waiter is justified: it blocked against a full connection, and every call that has left an opened
   stream since, and every SETTINGS frame, has woken everybody *)
Definition waiters_ok (l : list call) (m : Z) : Prop :=
  (exists c, has is_waiting l c) -> (m <= Z.of_nat (count is_opened l))%Z.

Record Inv (s : state) : Prop := {
  i_calls : every PC (calls s);
  i_creg : tracks is_opened (creg s) (calls s);
  i_sreg : tracks is_running (sreg s) (calls s);
  i_wait : waiters_ok (calls s) (maxc s);
  (* nothing is held back in the client's h2 buffer unless writing is paused *)
  i_held : cpaused s = false -> every (fun k => k_held k = false) (calls s)
}.

(* call c moves: it starts to wait only for a reason, and does not leave an opened stream *)
Lemma waiters_upd l m c k f :
  waiters_ok l m -> nth_error l c = Some k ->
  (is_waiting (f k) = true -> is_waiting k = true \/ (m <= Z.of_nat (count is_opened l))%Z) ->
  (is_opened k = true -> is_opened (f k) = true) ->
  waiters_ok (upd c f l) m.
Proof.
  intros W E HA HO [d Wd].
  assert (LE : (m <= Z.of_nat (count is_opened l))%Z).
  { destruct (Nat.eq_dec c d) as [<-|N].
    - apply (has_upd_at _ _ _ _ _ E) in Wd. destruct (HA Wd) as [X|X]; [|exact X].
      apply W. exists c. apply (has_at _ _ _ _ E), X.
    - apply W. exists d. rewrite has_upd_other in Wd; assumption. }
  pose proof (count_upd is_opened f l c k E) as CU.
  destruct (is_opened k); [rewrite (HO eq_refl) in CU|destruct (is_opened (f k))]; lia.
Qed.

Lemma waiters_map l m g : (forall k, k_cph (g k) = k_cph k) -> waiters_ok l m -> waiters_ok (map g l) m.
Proof.
  intros G W [d Wd]. unfold waiters_ok.
  rewrite count_map_same by (intros k; unfold is_opened; rewrite G; reflexivity).
  apply W. exists d. revert Wd. apply has_map. intros k. unfold is_waiting. rewrite G. reflexivity.
Qed.

Lemma open_is_opened k : PC k -> h2_open (k_ch k) = true -> k_cph k = COpened.
Proof.
  intros H OP. destruct (open_is_op _ OP) as [O _].
  destruct (is_pending k) eqn:X; [rewrite (pending_unop k H X) in O; discriminate|].
  unfold is_pending in X. destruct (k_cph k) eqn:Ph; try discriminate; auto.
  rewrite (exited_shut k H Ph) in OP; discriminate.
Qed.

Lemma open_le_opened l : every PC l -> count (fun k => h2_open (k_ch k)) l <= count is_opened l.
Proof.
  intros A. apply count_le. intros c k E OP. unfold is_opened.
  rewrite (open_is_opened k (A c k E) OP). reflexivity.
Qed.

(* what a local action does to the facts the registries, the held frames and the waiters rest on *)
Record tr_spec (full : Prop) (k : call) (ec es : reg_ev) (k' : call) : Prop := {
  tr_creg : ev_ok is_opened ec k k';
  tr_sreg : ev_ok is_running es k k';
  tr_held : k_held k' = k_held k;
  tr_opened : is_opened k = true -> is_opened k' = true;
  tr_waiting : is_waiting k' = true -> is_waiting k = true \/ full }.

(* the server registers a request only for a stream it has not seen: no handler yet *)
Lemma srv_recv_running f k :
  PC k -> ev_ok is_running (if snd (srv_recv f k) then Register else Keep) k (fst (srv_recv f k)).
Proof.
  intros P. unfold srv_recv, is_running. destruct f; [destruct (h_op (k_sh k)) eqn:SO| |]; simpl; auto.
  destruct (sv_unseen k P SO) as (_ & -> & _). auto.
Qed.

(* open, block, leave: the premise says which client phase the call had; every other action keeps the
   client phase, and the handler phase too unless a request arrives or the handler ends *)
Lemma tr_facts (full : Prop) k ec es k' : tr full k ec es k' -> PC k -> tr_spec full k ec es k'.
Proof.
  destruct 1 as [es NW|NW F|PK|rst Ph _ _|f r _|f r _|nonok h fs R _ _ _|R _|x h fs R _]; intros P;
    constructor; try apply (srv_recv_running f k P);
    unfold is_opened, is_running, is_waiting, is_nw, is_pending in *; simpl;
    rewrite ?R, ?(proj1 (srv_recv_client f k)), ?(proj2 (srv_recv_client f k));
    destruct (k_cph k); try discriminate; auto.
Qed.

Lemma wake_opened k : is_opened (wake k) = is_opened k.
Proof. unfold wake. destruct k as [[] ? ? ? ? ? ? ? ?]; reflexivity. Qed.
Lemma wake_running k : is_running (wake k) = is_running k.
Proof. unfold wake. destruct k as [[] ? ? ? ? ? ? ? ?]; reflexivity. Qed.
Lemma wake_not_waiting k : is_waiting (wake k) = false.
Proof. unfold wake. destruct k as [[] ? ? ? ? ? ? ? ?]; reflexivity. Qed.
Lemma wake_ch k : k_ch (wake k) = k_ch k.
Proof. unfold wake. destruct k as [[] ? ? ? ? ? ? ? ?]; reflexivity. Qed.
Lemma wake_sh k : k_sh (wake k) = k_sh k.
Proof. unfold wake. destruct k as [[] ? ? ? ? ? ? ? ?]; reflexivity. Qed.
Lemma wake_held k : k_held (wake k) = k_held k.
Proof. unfold wake. destruct k as [[] ? ? ? ? ? ? ? ?]; reflexivity. Qed.
Lemma wake_closed_opened k : closed_opened (wake k) = closed_opened k.
Proof. unfold wake, closed_opened. destruct k as [[] ? ? ? ? ? ? ? ?]; reflexivity. Qed.

Lemma no_waiting_after_wake l c : ~ has is_waiting (map wake l) c.
Proof.
  intros (k & E & P). rewrite nth_error_map in E.
  destruct (nth_error l c); simpl in E; inversion E; subst.
  rewrite wake_not_waiting in P; discriminate.
Qed.

Lemma flush1_cph k : k_cph (flush1 k) = k_cph k.
Proof. unfold flush1. destruct (k_held k); reflexivity. Qed.
Lemma flush1_sph k : k_sph (flush1 k) = k_sph k.
Proof. unfold flush1. destruct (k_held k); reflexivity. Qed.
Lemma flush1_ch k : k_ch (flush1 k) = k_ch k.
Proof. unfold flush1. destruct (k_held k); reflexivity. Qed.
Lemma flush1_sh k : k_sh (flush1 k) = k_sh k.
Proof. unfold flush1. destruct (k_held k); reflexivity. Qed.
Lemma flush1_not_held k : k_held (flush1 k) = false.
Proof. unfold flush1. destruct (k_held k) eqn:E; cbn; auto. Qed.

(* while writing is paused the RST_STREAM of a context exit is held back; any write releases it, and
   resume_writing does so at the latest *)
Lemma flushed l : every (fun k => k_held k = false) (map flush1 l).
Proof. apply (every_map (fun _ => True)); [intros k _; apply flush1_not_held|intros c k _; exact I]. Qed.

Lemma Inv_step s o : Inv s -> Inv (fst (step s o)).
Proof.
  intros [A B C D F].
  destruct (step_stepped s o) as [fl q p Hp|m q|p|c k f _ E Ph Hf|c k f ec es fl E T _].
  - (* nothing moves *) constructor; cbn; auto. intros ->. destruct Hp as [Hp|Hp]; [auto|discriminate].
  - (* a SETTINGS frame wakes everybody *) constructor; cbn.
    + eapply every_map, A. apply PC_wake.
    + apply tracks_map, B. apply wake_opened.
    + apply tracks_map, C. apply wake_running.
    + intros [d W]. destruct (no_waiting_after_wake _ _ W).
    + intros NP. eapply every_map, F, NP. intros k. rewrite wake_held. trivial.
  - (* a write flushes every held frame *) constructor; cbn.
    + eapply every_map, A. apply PC_flush1.
    + apply tracks_map, B. intros k. unfold is_opened. rewrite flush1_cph. reflexivity.
    + apply tracks_map, C. intros k. unfold is_running. rewrite flush1_sph. reflexivity.
    + apply waiters_map, D. apply flush1_cph.
    + intros _. apply flushed.
  - (* an opened call leaves its context and wakes everybody *) constructor; cbn.
    + eapply every_map; [apply PC_wake|]. apply (every_upd _ _ _ _ k A E). rewrite Hf.
      apply PC_cexit, Ph. apply (A c k E).
    + apply tracks_map, (tracks_upd _ _ _ _ k f Release B E); [apply wake_opened|rewrite Hf; reflexivity].
    + apply tracks_map, (tracks_upd _ _ _ _ k f Keep C E); [apply wake_running|rewrite Hf; reflexivity].
    + intros [d W]. destruct (no_waiting_after_wake _ _ W).
    + intros NP. eapply every_map; [intros k0 H0; rewrite wake_held; exact H0|].
      apply (every_upd _ _ _ _ k (F NP) E). rewrite Hf. cbn. rewrite NP, (F NP c k E), andb_false_r.
      reflexivity.
  - (* one call moves *) destruct (tr_facts _ _ _ _ _ T (A c k E)) as [Tc Ts Th To Tw]. constructor; cbn.
    + apply (every_upd _ _ _ _ k A E), (tr_PC _ _ _ _ _ T), (A c k E).
    + apply tracks_upd with k; auto.
    + apply tracks_upd with k; auto.
    + apply waiters_upd with k; auto.
      (* it blocks only against a full connection, and the streams that count belong to opened calls *)
      intros X. destruct (Tw X) as [Y|Y]; [left; exact Y|right]. pose proof (open_le_opened _ A).
      unfold open_out in Y. lia.
    + intros NP. apply (every_upd _ _ _ _ k (F NP) E). rewrite Th. apply (F NP c k E).
Qed.

Lemma has_repeat p x n c : has p (repeat x n) c -> p x = true.
Proof. intros (k & E & P). apply nth_error_In, repeat_spec in E. congruence. Qed.

Lemma Inv_init n m : Inv (init n m).
Proof.
  constructor; simpl.
  - apply every_repeat, PC_call0.
  - apply tracks_nil, every_repeat. reflexivity.
  - apply tracks_nil, every_repeat. reflexivity.
  - intros [c W]. apply has_repeat in W. discriminate.
  - intros _. apply every_repeat. reflexivity.
Qed.

Lemma Inv_run ops s : Inv s -> Inv (run ops s).
Proof.
  revert s; induction ops as [|o r IH]; intros s H; simpl; [assumption|].
  apply IH. apply Inv_step; assumption.
Qed.

Lemma Inv_reach n m ops : Inv (run ops (init n m)).
Proof. apply Inv_run, Inv_init. Qed.

Definition reachable (s : state) : Prop := exists n m ops, s = run ops (init n m).

Lemma reachable_inv s : reachable s -> Inv s.
Proof. intros (n & m & ops & ->). apply Inv_reach. Qed.

(* = every (fun k => p k = true) (calls s) *)
Definition all_calls (p : call -> bool) (s : state) : Prop :=
  forall c k, nth_error (calls s) c = Some k -> p k = true.

Lemma cexited_phase k : is_cexited k = true -> k_cph k = CExited.
Proof. unfold is_cexited. destruct (k_cph k); auto; discriminate. Qed.

Lemma empty_qc k : match k_qc k with [] => true | _ => false end = true -> k_qc k = [].
Proof. destruct (k_qc k); auto; discriminate. Qed.

(* the client side alone: whatever the peer did *)
Lemma client_side_clean s : Inv s -> all_calls is_cexited s -> creg s = [] /\ open_out s = 0.
Proof.
  intros I X. split.
  - apply (tracks_none _ _ _ (i_creg s I)). intros c k E. unfold is_opened.
    rewrite (cexited_phase k (X c k E)). reflexivity.
  - apply count_zero. intros c k E. apply (exited_shut k (i_calls s I c k E)), cexited_phase, (X c k E).
Qed.

Lemma srv_op_of_empty_wire k : PC k -> k_qc k = [] -> h_op (k_ch k) = true -> h_op (k_sh k) = true.
Proof.
  intros H Q CO. destruct (h_op (k_sh k)) eqn:SO; auto.
  destruct (sv_unseen k H SO) as (_ & _ & X). destruct (X CO) as (es & r & E & _). congruence.
Qed.

(* once the client endpoint has closed the stream and its frames have been written and have arrived,
   the server's is closed *)
Lemma client_closed_closes_server k :
  PC k -> k_qc k = [] -> k_held k = false -> h2_open (k_ch k) = false -> h2_open (k_sh k) = false.
Proof.
  intros H Q HD NO. destruct (h_op (k_ch k)) eqn:CO.
  - pose proof (srv_op_of_empty_wire k H Q CO) as SO.
    apply closed_not_open.
    destruct (closed_cases _ (not_open_op_closed _ NO CO)) as [SR|[RR|[SE RE]]].
    + destruct (rst_acc k H SR) as [I|[I|C]]; auto; [congruence|]. rewrite Q in I; inversion I.
    + apply closed_of_sr. apply (rr_sent k H RR).
    + pose proof (re_sent k H RE) as SSE.
      destruct (end_acc k H SE) as [I|[I|[R|C]]]; auto; try (rewrite Q in I; inversion I).
      apply closed_of_se_re; assumption.
  - destruct (unop_quiet k H CO) as [_ SO]. apply op_false_not_open; assumption.
Qed.

(* per call, whatever the handler does: the client has left the context, writing is possible and the
   client's frames have arrived => the stream counts on neither side (with the repaired D45: whatever
   reset_nowait could not write while paused is written by resume_writing) *)
Lemma client_exit_reaches_server s c k :
  Inv s -> nth_error (calls s) c = Some k -> k_cph k = CExited -> k_qc k = [] -> cpaused s = false ->
  h2_open (k_ch k) = false /\ h2_open (k_sh k) = false.
Proof.
  intros I E X Q NP. pose proof (i_calls s I c k E) as P. pose proof (exited_shut k P X) as NO.
  split; [exact NO|]. apply client_closed_closes_server; auto. apply (i_held s I NP c k E).
Qed.

(* `cpaused s = false` is needed: here call 0 leaves its context while writing is paused, and its stream
   still counts at the server (Props: C10_exit_while_paused_is_held_then_released) *)
Definition held_example : list op := [COpenTry 0 false; DeliverC2S 0; CPause; CExit 0].

(* both sides: all calls have exited (client contexts left, handlers ended), writing is not paused and
   the client's frames have arrived *)
Lemma no_open_streams s :
  Inv s -> all_calls is_cexited s -> all_calls (fun k => negb (is_running k)) s ->
  all_calls (fun k => match k_qc k with [] => true | _ => false end) s ->
  cpaused s = false ->
  creg s = [] /\ sreg s = [] /\ open_out s = 0 /\ open_in s = 0.
Proof.
  intros I X Y Z NP. destruct (client_side_clean s I X) as [C1 C2]. repeat split; auto.
  - apply (tracks_none _ _ _ (i_sreg s I)). intros c k E. apply negb_true_iff, (Y c k E).
  - apply count_zero. intros c k E.
    apply (client_exit_reaches_server s c k I E);
      [apply cexited_phase, (X c k E)|apply empty_qc, (Z c k E)|exact NP].
Qed.

Lemma finished_handler_closed k :
  PC k -> k_sph k = SExited false -> k_qc k = [] -> client_half_closed k = true ->
  h2_open (k_sh k) = false.
Proof.
  intros H X Q HC.
  assert (SO : h_op (k_sh k) = true).
  { destruct (h_op (k_sh k)) eqn:E; auto. destruct (sv_unseen k H E) as (_ & N & _). congruence. }
  pose proof (srv_op_cl_op k H SO) as CO.
  unfold client_half_closed in HC. apply andb_prop in HC. destruct HC as [HD HC].
  apply negb_true_iff in HD. rewrite CO in HC. simpl in HC.
  apply orb_prop in HC. destruct HC as [SE|CL].
  - apply closed_not_open.
    destruct (clean_exit k H X) as [SSE|C]; auto.
    destruct (end_acc k H SE) as [I|[I|[R|C]]]; auto; try (rewrite Q in I; inversion I).
    apply closed_of_se_re; assumption.
  - apply client_closed_closes_server; auto. apply closed_not_open; assumption.
Qed.

(* the server side alone, against any client that has closed its half of every stream.
   FULL STATEMENT (false, see no_open_streams_server_refuted):
     forall history, every handler has ended -> the client's frames have arrived ->
     the client has closed its half of every stream -> sreg = [] /\ open_in = 0.
   The hypothesis `is_leak k = false' of the partial theorem excludes exactly the handlers that ended
   in a BaseException (KBase) while their stream was neither closed nor ended by the server -- D4, D48
   and the handler cancelled before its first step (Props/C10.v, (2c)). *)
Lemma no_open_streams_server_partial s :
  Inv s ->
  all_calls (fun k => negb (is_running k)) s ->
  all_calls (fun k => negb (is_leak k)) s ->
  all_calls (fun k => match k_qc k with [] => true | _ => false end) s ->
  all_calls client_half_closed s ->
  sreg s = [] /\ open_in s = 0.
Proof.
  intros I Y L Z HC. split.
  - apply (tracks_none _ _ _ (i_sreg s I)). intros c k E. apply negb_true_iff, (Y c k E).
  - apply count_zero. intros c k E. pose proof (i_calls s I c k E) as P.
    specialize (Y _ _ E); specialize (L _ _ E); specialize (Z _ _ E); specialize (HC _ _ E).
    cbn in Y, L. unfold is_running, is_leak in *.
    destruct (k_sph k) as [| |[|]] eqn:Ph; try discriminate.
    + destruct (h_op (k_sh k)) eqn:SO; [|apply op_false_not_open; assumption].
      destruct (sv_seen k P SO) as [_ N]. congruence.
    + apply finished_handler_closed; auto. apply empty_qc, Z.
Qed.

Definition d4_witness : list op :=
  [COpenTry 0 false; CSendEnd 0; DeliverC2S 0; DeliverC2S 0; SExit 0 KBase].

Lemma no_open_streams_server_refuted :
  exists n m ops, let s := run ops (init n m) in
    all_calls (fun k => negb (is_running k)) s /\
    all_calls (fun k => match k_qc k with [] => true | _ => false end) s /\
    all_calls client_half_closed s /\
    sreg s = [] /\ open_in s = 1 /\ open_out s = 1.
Proof.
  exists 1, 100%Z, d4_witness. vm_compute.
  repeat split; auto; intros [|[|c]] k E; cbn in E; inversion E; reflexivity.
Qed.

(* the excluded class: a handler is marked `leak' only when it ended in a BaseException (D4, D48, or
   cancelled before its first step) while no END_STREAM had been sent and the stream counted *)
Lemma last_words_leak x k h fs :
  PC k -> last_words x k = (h, fs) -> h2_open h && negb (h_se h) = true ->
  x = KBase /\ h2_open (k_sh k) = true /\ h_se (k_sh k) = false.
Proof.
  intros P. unfold last_words. destruct (silent x k) eqn:SI.
  - intros [= <- _] L. apply andb_prop in L. destruct L as [OP SE]. apply negb_true_iff in SE.
    repeat split; auto. destruct (silent_cases x k SI) as [X|[T|[C|N]]]; [exact X|exfalso..].
    + rewrite (trail_se k P) in T. congruence.
    + rewrite (closed_not_open _ (closed_of_sr _ (cancel_sr k P C))) in OP; discriminate.
    + congruence.
  - intros ST L. destruct (not_silent x k SI) as [T OP].
    rewrite (trail_se k P) in T.
    rewrite (tl_se _ _ _ _ (srv_trailers_facts _ _ _ _ OP T ST)), andb_false_r in L. discriminate.
Qed.

Lemma leak_only_from_base s c x k k' :
  PC k -> nth_error (calls s) c = Some k -> k_sph k = SRunning ->
  nth_error (calls (fst (step s (SExit c x)))) c = Some k' -> k_sph k' = SExited true ->
  x = KBase /\ h2_open (k_sh k) = true /\ h_se (k_sh k) = false.
Proof.
  intros P E R E' L. simpl in E'. rewrite E, R in E'.
  fold (silent x k) in E'. fold (last_words x k) in E'.
  destruct (last_words x k) as [h fs] eqn:LW. simpl in E'. rewrite (nth_upd_same _ _ _ _ E) in E'.
  injection E' as <-. injection L as L. apply (last_words_leak x k h fs); assumption.
Qed.

(* the mechanism behind "finished with an error status => the stream no longer counts at the server":
   non-OK trailers are followed by RST_STREAM whenever the stream is still closable *)
Lemma srv_trailers_nonok_closed h : h2_open (fst (srv_trailers true h)) = false.
Proof.
  unfold srv_trailers. cbn [andb].
  destruct (h2_open (h2_send_end h)) eqn:E; cbn [fst]; [apply send_rst_not_open|assumption].
Qed.

Lemma error_status_closes_stream s c k :
  nth_error (calls s) c = Some k -> k_sph k = SRunning ->
  (snd (step s (STrailers c true)) = ONone ->
   exists k', nth_error (calls (fst (step s (STrailers c true)))) c = Some k' /\ h2_open (k_sh k') = false) /\
  (k_trail k = false -> k_cancel k = false ->
   exists k', nth_error (calls (fst (step s (SExit c KErr)))) c = Some k' /\ h2_open (k_sh k') = false).
Proof.
  intros E R. pose proof (srv_trailers_nonok_closed (k_sh k)) as X.
  assert (U : forall f, h2_open (k_sh (f k)) = false ->
              exists k', nth_error (upd c f (calls s)) c = Some k' /\ h2_open (k_sh k') = false).
  { intros f H. rewrite (nth_upd_same _ _ _ _ E). eauto. }
  split; simpl; rewrite E, R.
  - destruct (k_trail k); [discriminate|]. destruct (negb (h2_open (k_sh k))); [discriminate|].
    destruct (srv_trailers true (k_sh k)) as [h fs]. intros _. apply U, X.
  - intros -> ->. simpl. destruct (h2_open (k_sh k)) eqn:OP; simpl;
      [destruct (srv_trailers true (k_sh k)) as [h fs]|]; apply U; assumption.
Qed.

(* no lost wake-up: in a quiescent state a call blocked on stream_close_waiter faces a full connection
   (as many open outbound streams as the last announced limit allows) *)
Lemma no_lost_wakeup s c :
  Inv s -> quiescent s = true -> has is_waiting (calls s) c -> (maxc s <= Z.of_nat (open_out s))%Z.
Proof.
  intros I Q W. apply Z.le_trans with (1 := i_wait s I (ex_intro _ c W)).
  (* at rest every opened call still holds its slot *)
  apply Nat2Z.inj_le, count_le. intros d k E O.
  unfold quiescent in Q. destruct (sq s); [|discriminate].
  rewrite forallb_forall in Q. specialize (Q k (nth_error_In _ _ E)). rewrite O in Q.
  apply andb_prop in Q. destruct Q as [_ Q]. apply negb_true_iff in Q. simpl in Q. unfold h2_open. rewrite Q.
  rewrite (opened_op k (i_calls s I d k E)); [reflexivity|].
  unfold is_opened in O. destruct (k_cph k); auto; discriminate.
Qed.

Lemma waiting_woken l d : has is_waiting l d -> has is_woken (map wake l) d.
Proof.
  apply has_map_to. intros k. unfold wake, is_waiting, is_woken. destruct (k_cph k); auto; discriminate.
Qed.

(* every release (client context exit of an opened call) wakes ALL waiters *)
Lemma release_wakes_all s c k :
  nth_error (calls s) c = Some k -> k_cph k = COpened ->
  let s' := fst (step s (CExit c)) in
  (forall d, ~ has is_waiting (calls s') d) /\ flag s' = true /\
  (forall d, has is_waiting (calls s) d -> has is_woken (calls s') d).
Proof.
  intros E Ph. simpl. rewrite E, Ph. simpl. repeat split; [intros d; apply no_waiting_after_wake|].
  intros d W. apply waiting_woken. revert W. apply has_upd_eq with k; auto.
  unfold is_waiting. simpl. rewrite Ph. reflexivity.
Qed.

(* asyncio's rule: a woken waiter stays runnable whatever happens (in particular when another retry
   clears the flag) until it runs itself or its task leaves *)
Lemma woken_stays_woken s o c :
  has is_woken (calls s) c ->
  (forall es, o <> COpenTry c es) -> o <> CExit c ->
  has is_woken (calls (fst (step s o))) c.
Proof.
  intros W N1 N2.
  assert (WK : forall k, is_woken k = true -> is_woken (wake k) = true).
  { intros k. unfold wake, is_woken. destruct (k_cph k) eqn:X; try discriminate. rewrite X. trivial. }
  destruct (step_stepped s o) as [fl q p _|m q|p|d k f -> E Ph Hf|d k f ec es fl E T Hc]; cbn.
  - exact W.
  - apply has_map_to with is_woken; assumption.
  - apply has_map; [|exact W]. intros k. unfold is_woken. rewrite flush1_cph. reflexivity.
  - apply has_map_to with is_woken; [assumption|]. apply has_upd_other; congruence.
  - destruct (Nat.eq_dec d c) as [->|N]; [|apply has_upd_other; assumption].
    apply (has_upd_at _ _ _ _ _ E). apply (has_at _ _ _ _ E) in W.
    destruct Hc as [Hc|[->|[b ->]]]; [unfold is_woken in *; rewrite Hc; exact W|contradiction|].
    destruct (N1 b eq_refl).
Qed.

Definition retry (l : list (nat * bool)) (s : state) : state :=
  fold_left (fun s ce => fst (step s (COpenTry (fst ce) (snd ce)))) l s.

Definition phi (s : state) : nat := 2 * pending_count s + opened_count s.

Lemma retry_cons c es r s : retry ((c, es) :: r) s = retry r (fst (step s (COpenTry c es))).
Proof. reflexivity. Qed.

Lemma retry_run l s : retry l s = run (map (fun ce => COpenTry (fst ce) (snd ce)) l) s.
Proof. revert s; induction l as [|[c es] r IH]; intros s; simpl; auto. Qed.

Lemma Inv_retry l s : Inv s -> Inv (retry l s).
Proof. rewrite retry_run. apply Inv_run. Qed.

(* one attempt touches only the call it names, only if that call is in the retry loop, and takes it out *)
Lemma try_other s c es d :
  c <> d -> nth_error (calls (fst (step s (COpenTry c es)))) d = nth_error (calls s) d.
Proof. intros N. destruct (step_try s c es); simpl; auto using nth_upd_other. Qed.

Lemma try_fixed s c es d :
  ~ has is_nw (calls s) d -> nth_error (calls (fst (step s (COpenTry c es)))) d = nth_error (calls s) d.
Proof.
  intros N. destruct (Nat.eq_dec c d) as [<-|]; [|apply try_other; assumption].
  destruct (step_try s c es) as [|k E NW _|k E NW _]; auto; destruct N; apply (has_at _ _ _ _ E), NW.
Qed.

Lemma try_not_nw s c es : ~ has is_nw (calls (fst (step s (COpenTry c es)))) c.
Proof.
  destruct (step_try s c es) as [|k E _ _|k E _ _]; auto; simpl; rewrite (has_upd_at _ _ _ _ _ E);
    discriminate.
Qed.

Lemma retry_fixed l s d :
  ~ has is_nw (calls s) d -> nth_error (calls (retry l s)) d = nth_error (calls s) d.
Proof.
  revert s; induction l as [|[c es] r IH]; intros s N; [reflexivity|].
  rewrite retry_cons, IH; [apply try_fixed, N|]. unfold has. rewrite try_fixed; assumption.
Qed.

Lemma retry_nw l s d :
  has is_nw (calls (retry l s)) d -> has is_nw (calls s) d /\ ~ In d (map fst l).
Proof.
  revert s; induction l as [|[c es] r IH]; intros s H; [simpl in *; tauto|].
  rewrite retry_cons in H. destruct (IH _ H) as [H1 H2].
  assert (N : c <> d) by (intros ->; exact (try_not_nw s d es H1)).
  unfold has in H1. rewrite try_other in H1 by assumption. simpl. tauto.
Qed.

(* no waiter is lost by retries: a pending call stays pending or has started *)
Lemma retry_keeps_waiters l s d :
  has is_pending (calls s) d ->
  has is_pending (calls (retry l s)) d \/ has is_opened (calls (retry l s)) d.
Proof.
  revert s; induction l as [|[c es] r IH]; intros s H; [simpl; auto|].
  rewrite retry_cons.
  assert (X : has is_pending (calls (fst (step s (COpenTry c es)))) d \/
              has is_opened (calls (fst (step s (COpenTry c es)))) d).
  { destruct (Nat.eq_dec c d) as [<-|N]; [|left; unfold has; rewrite try_other; assumption].
    destruct (step_try s c es) as [|k E _ _|k E _ _]; [left; exact H|right|left]; simpl;
      apply (has_upd_at _ _ _ _ _ E); reflexivity. }
  destruct X as [X|X]; [apply IH, X|right]. unfold has. rewrite retry_fixed; [exact X|].
  intros (k & E & NW). destruct X as (k' & E' & O). rewrite E in E'. injection E' as <-.
  unfold is_nw, is_opened in *. destruct (k_cph k); discriminate.
Qed.

(* retries never raise the measure, the context exit of an opened call lowers it *)
Lemma retry_phi l s : maxc (retry l s) = maxc s /\ phi (retry l s) <= phi s.
Proof.
  revert s; induction l as [|[c es] r IH]; intros s; [simpl; auto|].
  rewrite retry_cons. destruct (IH (fst (step s (COpenTry c es)))) as (M & A). revert M A.
  unfold phi, pending_count, opened_count.
  destruct (step_try s c es) as [N|k E NW LT|k E NW GE]; cbn [fst calls maxc]; [auto|..].
  - (* opened: one pending call less, one opened call more *)
    pose proof (count_upd is_pending (open_call es) _ c k E) as C1.
    pose proof (count_upd is_opened (open_call es) _ c k E) as C2.
    rewrite (nw_pending k NW) in C1. replace (is_opened k) with false in C2
      by (unfold is_nw, is_opened in *; destruct (k_cph k); auto; discriminate).
    cbn in C1, C2. intros M A. split; [assumption|lia].
  - rewrite !(count_upd_eq _ (set_cph CWaiting) _ c k E); auto;
      unfold is_nw, is_pending, is_opened in *; simpl; destruct (k_cph k); auto; discriminate.
Qed.

Lemma exit_phi s c k :
  nth_error (calls s) c = Some k -> k_cph k = COpened ->
  let s' := fst (step s (CExit c)) in maxc s' = maxc s /\ phi s' < phi s.
Proof.
  intros E Ph. simpl. rewrite E, Ph. simpl. unfold phi, pending_count, opened_count. simpl.
  split; [reflexivity|].
  rewrite !count_map_same.
  - match goal with |- context[upd c ?f _] =>
      pose proof (count_upd is_pending f _ c k E) as C1;
      pose proof (count_upd is_opened f _ c k E) as C2 end.
    assert (X1 : is_pending k = false) by (unfold is_pending; rewrite Ph; reflexivity).
    assert (X2 : is_opened k = true) by (unfold is_opened; rewrite Ph; reflexivity).
    rewrite X1 in C1. rewrite X2 in C2. cbn in C1, C2. lia.
  - apply wake_opened.
  - intros k0. unfold wake, is_pending. destruct (k_cph k0) eqn:X; cbn; rewrite ?X; reflexivity.
Qed.

Definition round (ord : state -> list (nat * bool)) (pick : state -> option nat) (s : state) : state :=
  let s1 := retry (ord s) s in
  match pick s1 with Some c => fst (step s1 (CExit c)) | None => s1 end.

(* any order of retries that includes every runnable waiter; any choice of the next call to finish *)
Definition fair_ord (ord : state -> list (nat * bool)) : Prop :=
  forall s c, has is_nw (calls s) c -> In c (map fst (ord s)).
Definition fair_pick (pick : state -> option nat) : Prop :=
  (forall s c, pick s = Some c -> has is_opened (calls s) c) /\
  (forall s, pick s = None -> opened_count s = 0).

Lemma Inv_round ord pick s : Inv s -> Inv (round ord pick s).
Proof.
  intros H. unfold round. destruct (pick (retry (ord s) s)); [apply Inv_step|]; apply Inv_retry, H.
Qed.

Lemma round_progress ord pick s :
  fair_ord ord -> fair_pick pick -> Inv s -> (1 <= maxc s)%Z ->
  maxc (round ord pick s) = maxc s /\ (phi (round ord pick s) < phi s \/ phi (round ord pick s) = 0).
Proof.
  intros FO [FP1 FP2] I M. unfold round.
  destruct (retry_phi (ord s) s) as (MX & LE).
  pose proof (Inv_retry (ord s) s I) as I1.
  set (s1 := retry (ord s) s) in *.
  destruct (pick s1) as [c|] eqn:PK.
  - destruct (FP1 _ _ PK) as (k & E & O).
    assert (Ph : k_cph k = COpened) by (unfold is_opened in O; destruct (k_cph k); auto; discriminate).
    destruct (exit_phi s1 c k E Ph) as (M1 & P1). split; [congruence|left; lia].
  - split; [assumption|]. right.
    pose proof (FP2 _ PK) as OZ.
    assert (PZ : pending_count s1 = 0).
    { apply count_zero. intros d k E. destruct (is_pending k) eqn:P; auto. exfalso.
      destruct (is_nw k) eqn:NW.
      - (* still New / Woken: it was in the retry list *)
        destruct (retry_nw (ord s) s d) as [H1 H2]; [exists k; auto|]. apply H2, FO, H1.
      - (* Waiting: the invariant gives an opened call *)
        assert (W : has is_waiting (calls s1) d).
        { exists k. split; auto. unfold is_pending, is_nw, is_waiting in *.
          destruct (k_cph k); auto; discriminate. }
        pose proof (i_wait s1 I1 (ex_intro _ d W)). unfold opened_count in OZ. lia. }
    unfold phi. lia.
Qed.

Fixpoint rounds (n : nat) ord pick (s : state) : state :=
  match n with O => s | S n' => rounds n' ord pick (round ord pick s) end.

(* with enough releases every waiter proceeds: after phi(s) rounds nobody is pending and nobody is still
   running; since a round never exits a call that is not opened, every call has started *)
Lemma all_waiters_proceed ord pick n s :
  fair_ord ord -> fair_pick pick -> Inv s -> (1 <= maxc s)%Z -> phi s <= n ->
  pending_count (rounds n ord pick s) = 0 /\ opened_count (rounds n ord pick s) = 0.
Proof.
  intros FO FP. revert s. induction n as [|n IH]; intros s I M LE; simpl.
  - unfold phi in LE. lia.
  - destruct (round_progress ord pick s FO FP I M) as [MX [LT|Z]];
      apply IH; auto using Inv_round; lia.
Qed.

Lemma retry_full l s :
  (maxc s <= Z.of_nat (open_out s))%Z ->
  open_out (retry l s) = open_out s /\ maxc (retry l s) = maxc s /\
  (forall d, In d (map fst l) -> has is_nw (calls s) d -> has is_waiting (calls (retry l s)) d).
Proof.
  revert s; induction l as [|[c es] r IH]; intros s LE; [simpl; repeat split; auto; intros d []|].
  rewrite retry_cons. destruct (step_try s c es) as [N|k E NW LT|k E NW _]; cbn [fst]; [|lia|].
  - destruct (IH s LE) as (B1 & B2 & B3). repeat split; auto.
    intros d [<-|X] H; [contradiction|auto].
  - set (s1 := Build_state _ _ _ _ _ _ _).
    assert (O1 : open_out s1 = open_out s) by (apply (count_upd_eq _ _ _ _ k E); reflexivity).
    destruct (IH s1) as (B1 & B2 & B3); [unfold s1 at 1; simpl; rewrite O1; exact LE|].
    split; [congruence|split; [exact B2|]].
    assert (W : has is_waiting (calls s1) c) by (apply (has_upd_at _ _ _ _ _ E); reflexivity).
    intros d X H. destruct (Nat.eq_dec c d) as [<-|N].
    + unfold has. rewrite retry_fixed; [exact W|]. intros (k' & E' & NW').
      destruct W as (k'' & E'' & W). rewrite E' in E''. injection E'' as <-.
      unfold is_nw, is_waiting in *. destruct (k_cph k'); discriminate.
    + apply B3; [destruct X; [contradiction|assumption]|]. apply has_upd_other; assumption.
Qed.

(* k runnable waiters and one free slot: the first to run takes it, every other one re-blocks *)
Lemma one_slot_first_wins s c es rest k :
  Inv s -> nth_error (calls s) c = Some k -> is_nw k = true ->
  (Z.of_nat (open_out s) + 1 = maxc s)%Z ->
  let s' := retry ((c, es) :: rest) s in
  has is_opened (calls s') c /\ open_out s' = S (open_out s) /\
  (forall d, d <> c -> In d (map fst rest) -> has is_nw (calls s) d -> has is_waiting (calls s') d).
Proof.
  intros I E NW SLOT. cbv zeta. rewrite retry_cons.
  destruct (step_try s c es) as [N|k' E' _ _|k' _ _ GE]; cbn [fst]; [|clear k' E'|lia].
  { destruct N. apply (has_at _ _ _ _ E), NW. }
  set (s1 := Build_state _ _ _ _ _ _ _).
  assert (O1 : open_out s1 = S (open_out s)).
  { pose proof (count_upd (fun k => h2_open (k_ch k)) (open_call es) _ c k E) as C. cbn in C.
    rewrite (op_false_not_open _ (pending_unop k (i_calls s I c k E) (nw_pending k NW))), andb_false_r in C.
    unfold open_out, s1. simpl in *. lia. }
  destruct (retry_full rest s1) as (B1 & B2 & B3); [unfold s1 at 1; simpl; lia|].
  repeat split; [|congruence|].
  - unfold has. rewrite retry_fixed; [apply (has_upd_at _ _ _ _ _ E); reflexivity|].
    intros H. apply (has_upd_at _ _ _ _ _ E) in H. discriminate.
  - intros d N X H. apply B3; auto. apply has_upd_other; auto.
Qed.

(* a round is a history of the model: retries, then one context exit of an opened call *)
Lemma round_is_history ord pick s :
  exists ops, round ord pick s = run ops s /\
    forall o, In o ops -> (exists c es, o = COpenTry c es) \/
                          (exists c, o = CExit c /\ pick (retry (ord s) s) = Some c).
Proof.
  unfold round. rewrite retry_run. set (l := map _ (ord s)).
  exists (l ++ match pick (run l s) with Some c => [CExit c] | None => [] end). split.
  - unfold run. rewrite fold_left_app. destruct (pick _); reflexivity.
  - intros o I. apply in_app_or in I. destruct I as [I|I].
    + apply in_map_iff in I. destruct I as ([c es] & <- & _). left; eauto.
    + destruct (pick (run l s)) as [c|]; [|destruct I]. destruct I as [<-|[]]. right; eauto.
Qed.
