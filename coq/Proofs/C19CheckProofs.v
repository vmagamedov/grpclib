(* Proofs for Props/C19.v, part 3: ServiceCheck.__check__ (TTL cache, single flight, timeout).
   One invariant over every reachable state of the timed state machine, for ALL op lists: any number of
   callers arriving at any time, any function results and durations, cancellations at any point
   (including the one that coincides with the timeout), any passage of time. *)
From Coq Require Import ZArith List Bool Lia ZifyBool Arith.
From GV Require Import Gen.FactsC19 Model.Health Proofs.C19Proofs Proofs.C19WatchProofs.
Import ListNotations.
Open Scope Z_scope.

(* the definitions with the source facts (Gen.FactsC19) resolved *)
Lemma fail_value_eq : fail_value = SFalse.
Proof. reflexivity. Qed.

Lemma ttl_test_eq e t : ttl_test e t = (e <? t).
Proof. reflexivity. Qed.

Lemma value_of_fres_eq r :
  value_of_fres r = match r with FTrue => STrue | FNone => SNone | _ => SFalse end.
Proof. destruct r; reflexivity. Qed.

Lemma note_changed k prev v : v <> prev -> note k prev v = (k_now k, v) :: k_notes k.
Proof.
  intro N. unfold note. destruct (st_eqb v prev) eqn:E; [|reflexivity]. apply st_eqb_eq in E. congruence.
Qed.

Definition end_callers (f : cst) (now : Z) (l : list cst) : list cst :=
  map (fun c => match c with CRun _ => f | CWait => CWoken | x => x end) l.

Lemma finish_eq k v h :
  finish k v h =
  match k_run k with
  | None => k
  | Some (start, _, prev) =>
    mkK (k_ttl k) (k_tmo k) (k_now k) v (Some (k_now k)) true None
        (end_callers (CRet v (k_now k)) (k_now k) (k_callers k))
        ((start, k_now k, h) :: k_log k) (note k prev v)
  end.
Proof. reflexivity. Qed.

Lemma abort_eq k :
  abort k =
  match k_run k with
  | None => k
  | Some (start, _, _) =>
    mkK (k_ttl k) (k_tmo k) (k_now k) (k_value k) (k_last k) true None
        (end_callers (CCancelled (k_now k)) (k_now k) (k_callers k))
        ((start, k_now k, HAborted) :: k_log k) (k_notes k)
  end.
Proof. reflexivity. Qed.

Lemma k_call_eq k :
  k_call k =
  if cached k then add_caller k (CRet (k_value k) (k_now k))
  else if negb (k_lock k) then add_caller k CWait
  else if k_tmo k <=? 0 then
    mkK (k_ttl k) (k_tmo k) (k_now k) SFalse (Some (k_now k)) true None
        (k_callers k ++ [CRet SFalse (k_now k)]) (k_log k) (note k (k_value k) SFalse)
  else
    mkK (k_ttl k) (k_tmo k) (k_now k) (k_value k) (k_last k) false
        (Some (k_now k, Some (k_now k + k_tmo k), k_value k))
        (k_callers k ++ [CRun false]) (k_log k) (k_notes k).
Proof. reflexivity. Qed.

(* reduces the projections of a state written out with mkK *)
Ltac fields := cbn [k_ttl k_tmo k_now k_value k_last k_lock k_run k_callers k_log k_notes].

Definition is_run (c : cst) : bool := match c with CRun _ => true | _ => false end.
Definition count_run (l : list cst) : nat := length (filter is_run l).

Lemma count_run_app l c : count_run (l ++ [c]) = (count_run l + if is_run c then 1 else 0)%nat.
Proof.
  unfold count_run. rewrite filter_app, app_length. cbn [filter]. destruct (is_run c); simpl; lia.
Qed.

Lemma count_run_upd k f l :
  (forall x, is_run (f x) = is_run x) -> count_run (upd_nth k f l) = count_run l.
Proof.
  intro H. unfold count_run. revert k. induction l as [|x r IH]; intros [|k]; cbn [upd_nth filter]; try reflexivity.
  - rewrite H. destruct (is_run x); reflexivity.
  - destruct (is_run x); cbn [length]; rewrite IH; reflexivity.
Qed.

Lemma count_run_end f now l : is_run f = false -> count_run (end_callers f now l) = 0%nat.
Proof.
  intro H. unfold count_run, end_callers. induction l as [|x r IH]; [reflexivity|].
  cbn [map filter]. destruct x; cbn [is_run]; try exact IH. rewrite H. exact IH.
Qed.

Lemma count_run_one_has l : count_run l = 1%nat -> exists b, In (CRun b) l.
Proof.
  unfold count_run. induction l as [|x r IH]; [discriminate|]. cbn [filter].
  destruct x; cbn [is_run]; try (intro H; destruct (IH H) as [b' Hb]; exists b'; right; exact Hb).
  intros _. exists cancelling. left. reflexivity.
Qed.

Lemma count_run_zero_none l b : count_run l = 0%nat -> ~ In (CRun b) l.
Proof.
  unfold count_run. induction l as [|x r IH]; [intros _ []|]. cbn [filter].
  destruct x; cbn [is_run]; try (intros H [E|E]; [discriminate | exact (IH H E)]).
  discriminate.
Qed.

Lemma end_callers_clean f now l :
  is_run f = false -> f <> CWait ->
  ~ In CWait (end_callers f now l) /\ (forall b, ~ In (CRun b) (end_callers f now l)).
Proof.
  intros Hr Hw. split.
  - intro H. apply in_map_iff in H. destruct H as [[] [E _]]; congruence.
  - intros b. apply count_run_zero_none, count_run_end, Hr.
Qed.

Lemma end_callers_run f now l c b :
  nth_error l c = Some (CRun b) -> nth_error (end_callers f now l) c = Some f.
Proof. intro N. unfold end_callers. rewrite nth_error_map, N. reflexivity. Qed.

Lemma runner_state_none k : k_run k = None -> runner_state k = None.
Proof. unfold runner_state. intros ->. reflexivity. Qed.

Lemma runner_state_some k b : runner_state k = Some b -> exists s dl p, k_run k = Some (s, dl, p).
Proof.
  unfold runner_state. destruct (k_run k) as [[[s dl] p]|]; [|discriminate]. intros _. eauto.
Qed.

Definition i_start' (x : Z * option Z * option how) : Z := fst (fst x).

(* newest first: every older run has ended, before the newer one started *)
Fixpoint no_overlap (l : list (Z * option Z * option how)) : Prop :=
  match l with
  | [] => True
  | x :: r => (forall y, In y r -> exists e, snd (fst y) = Some e /\ e <= fst (fst x)) /\ no_overlap r
  end.

(* ... and, when the older run produced a status, at least check_ttl before *)
Fixpoint ttl_spaced (ttl : Z) (l : list (Z * option Z * option how)) : Prop :=
  match l with
  | [] => True
  | x :: r =>
    (forall y e h, In y r -> snd (fst y) = Some e -> snd y = Some h -> h <> HAborted ->
                   e + ttl <= fst (fst x)) /\ ttl_spaced ttl r
  end.

Definition run_over (k : sck) : Prop :=
  k_run k = None /\ k_lock k = true /\ ~ In CWait (k_callers k) /\ (forall b, ~ In (CRun b) (k_callers k)).

Lemma finish_result k v h s dl p :
  k_run k = Some (s, dl, p) ->
  let k' := finish k v h in
  k_value k' = v /\ k_last k' = Some (k_now k) /\ run_over k' /\
  In (s, Some (k_now k), Some h) (invocations k') /\
  k_callers k' = end_callers (CRet v (k_now k)) (k_now k) (k_callers k).
Proof.
  intro E. rewrite finish_eq, E. unfold run_over, invocations.
  fields. cbn [app map]. repeat split; try (left; reflexivity);
    apply end_callers_clean; (reflexivity || discriminate).
Qed.

Theorem failure_is_false k r :
  runner_state k = Some false -> r = FRaise \/ r = FNonBool ->
  let k' := kstep k (KFuncEnd r) in
  k_value k' = SFalse /\ k_last k' = Some (k_now k) /\ run_over k' /\
  (forall c b, nth_error (k_callers k) c = Some (CRun b) -> nth_error (k_callers k') c = Some (CRet SFalse (k_now k))).
Proof.
  intros RS Hr. cbn [kstep]. rewrite RS. destruct (runner_state_some k _ RS) as (s & dl & p & E).
  destruct (finish_result k (value_of_fres r) (HRet r) s dl p E) as (A & B & C & _ & D).
  assert (V : value_of_fres r = SFalse) by (destruct Hr as [-> | ->]; reflexivity). rewrite V in *.
  repeat split; try assumption; try apply C. intros c b N. rewrite D. apply (end_callers_run _ _ _ _ _ N).
Qed.

(* the function runs until the deadline: the timer ends the run, the check counts as failing -- also when
   the caller's own cancellation was requested in the same instant (that cancellation is lost) *)
Theorem timeout_is_false k b s p :
  runner_state k = Some b -> k_run k = Some (s, Some (s + k_tmo k), p) -> k_now k = s + k_tmo k ->
  let k' := kstep k KTimeout in
  k_value k' = SFalse /\ k_last k' = Some (k_now k) /\ run_over k' /\
  In (s, Some (s + k_tmo k), Some HTimeout) (invocations k') /\
  (forall c b', nth_error (k_callers k) c = Some (CRun b') -> nth_error (k_callers k') c = Some (CRet SFalse (k_now k))) /\
  (* and time cannot pass the deadline while the run is in flight *)
  (forall dt, k_now (kstep k (KAdvance dt)) = k_now k).
Proof.
  intros RS E Hn. cbn [kstep]. rewrite RS. unfold deadline_of. rewrite E.
  replace (s + k_tmo k <=? k_now k) with true by lia. rewrite fail_value_eq.
  destruct (finish_result k SFalse HTimeout _ _ _ E) as (A & B & C & F & D). rewrite Hn in F.
  repeat split; try assumption; try apply C.
  - intros c b' N. rewrite D. apply (end_callers_run _ _ _ _ _ N).
  - intros dt. destruct (dt <=? 0) eqn:Hdt; [reflexivity|]. fields. lia.
Qed.

Theorem abort_invisible k :
  runner_state k = Some true ->
  let k' := kstep k KDeliver in
  k_value k' = k_value k /\ k_last k' = k_last k /\ k_notes k' = k_notes k /\ run_over k'.
Proof.
  intros RS. cbn [kstep]. rewrite RS, abort_eq. destruct (runner_state_some k _ RS) as (s & dl & p & ->).
  unfold run_over. fields.
  repeat split; apply end_callers_clean; (reflexivity || discriminate).
Qed.

Section Invariant.
Variables ttl tmo : Z.

(* ttl, tmo: the two parameters, which no step writes.  Of a run only its start enters i_spaced, so the
   end of the run in flight keeps it; a new run starts only when the cached result has expired. *)
Record kinv (k : sck) : Prop := mkInv {
  i_ttl : k_ttl k = ttl;
  i_tmo : k_tmo k = tmo;
  i_lock : k_lock k = true <-> k_run k = None;
  i_runner : count_run (k_callers k) = match k_run k with Some _ => 1%nat | None => 0%nat end;
  i_wait : In CWait (k_callers k) -> k_run k <> None;
  i_run : forall s dl p, k_run k = Some (s, dl, p) ->
          dl = Some (s + tmo) /\ 0 < tmo /\ s <= k_now k <= s + tmo /\ p = k_value k;
  i_done : forall s e h, In (s, e, h) (k_log k) -> h <> HAborted -> exists l, k_last k = Some l /\ e <= l;
  i_time : forall s e h, In (s, e, h) (k_log k) -> s <= e <= k_now k /\ e <= s + tmo /\ 0 < tmo;
  i_spaced : no_overlap (invocations k) /\ ttl_spaced ttl (invocations k)
}.

Lemma kinit_inv t0 : kinv (kinit ttl tmo t0).
Proof. constructor; cbn; try tauto; try discriminate; reflexivity. Qed.

Lemma runner_state_flag k b : kinv k -> In (CRun b) (k_callers k) -> runner_state k = Some b.
Proof.
  intros I Hin. pose proof (i_runner k I) as C. unfold runner_state, count_run in *.
  destruct (k_run k); [|exfalso; exact (count_run_zero_none _ b C Hin)].
  induction (k_callers k) as [|x r IH]; [destruct Hin|]. cbn [filter fold_right] in *.
  destruct x; cbn [is_run length] in C; try (destruct Hin as [Hin|Hin]; [discriminate | exact (IH Hin C)]).
  destruct Hin as [[= ->]|Hin]; [reflexivity|]. exfalso.
  apply (count_run_zero_none r b); [unfold count_run; lia | exact Hin].
Qed.

Lemma deadline_inv k s dl p : kinv k -> k_run k = Some (s, dl, p) -> deadline_of k = Some (s + tmo).
Proof.
  intros I H. destruct (i_run k I _ _ _ H) as [E _]. unfold deadline_of. rewrite H, E. reflexivity.
Qed.

Lemma in_flight k :
  kinv k -> (In CWait (k_callers k) \/ exists b, In (CRun b) (k_callers k)) ->
  exists s p, k_run k = Some (s, Some (s + tmo), p) /\ s <= k_now k <= s + tmo /\ k_lock k = false.
Proof.
  intros I H.
  assert (R : k_run k <> None).
  { destruct H as [H|[b H]]; [exact (i_wait k I H)|].
    intro R. pose proof (i_runner k I) as C. rewrite R in C. exact (count_run_zero_none _ b C H). }
  destruct (k_run k) as [[[s dl] p]|] eqn:E; [|congruence].
  destruct (i_run k I _ _ _ E) as (-> & _ & Hn & _). exists s, p. repeat split; try apply Hn.
  destruct (k_lock k) eqn:L; [|reflexivity]. apply (i_lock k I) in L. congruence.
Qed.

Lemma finish_inv k v h : kinv k -> kinv (finish k v h).
Proof.
  intros I. rewrite finish_eq. destruct (k_run k) as [[[s dl] p]|] eqn:E; [|exact I].
  destruct (i_run k I _ _ _ E) as (_ & Ht & Hn & _).
  pose proof (i_spaced k I) as O. unfold invocations in O. rewrite E in O.
  constructor; fields; try apply I.
  - tauto.
  - apply count_run_end. reflexivity.
  - intro W. exfalso. revert W. apply end_callers_clean; [reflexivity | discriminate].
  - discriminate.
  - intros s' e' h' [[= <- <- <-]|Hy] _; exists (k_now k); (split; [reflexivity|]); [lia | apply (i_time k I _ _ _ Hy)].
  - intros s' e' h' [[= <- <- <-]|Hy]; [lia | apply (i_time k I _ _ _ Hy)].
  - exact O.
Qed.

Lemma abort_inv k : kinv k -> kinv (abort k).
Proof.
  intros I. rewrite abort_eq. destruct (k_run k) as [[[s dl] p]|] eqn:E; [|exact I].
  destruct (i_run k I _ _ _ E) as (_ & Ht & Hn & _).
  pose proof (i_spaced k I) as O. unfold invocations in O. rewrite E in O.
  constructor; fields; try apply I.
  - tauto.
  - apply count_run_end. reflexivity.
  - intro W. exfalso. revert W. apply end_callers_clean; [reflexivity | discriminate].
  - discriminate.
  - intros s' e' h' [[= <- <- <-]|Hy] D; [congruence | exact (i_done k I _ _ _ Hy D)].
  - intros s' e' h' [[= <- <- <-]|Hy]; [lia | apply (i_time k I _ _ _ Hy)].
  - exact O.
Qed.

(* KResume, KCancel and a caller that returns or waits at once touch only the list of callers *)
Definition with_callers (k : sck) (l : list cst) : sck :=
  mkK (k_ttl k) (k_tmo k) (k_now k) (k_value k) (k_last k) (k_lock k) (k_run k) l (k_log k) (k_notes k).

Lemma callers_inv k l :
  kinv k -> count_run l = count_run (k_callers k) ->
  (In CWait l -> In CWait (k_callers k) \/ k_run k <> None) -> kinv (with_callers k l).
Proof.
  intros I Hr Hw. constructor; unfold with_callers; fields;
    try apply I.
  - rewrite Hr. apply I.
  - intro W. destruct (Hw W) as [W'|R]; [exact (i_wait k I W') | exact R].
Qed.

Lemma upd_callers_inv k c f :
  kinv k -> (forall x, is_run (f x) = is_run x) -> (forall x, f x = CWait -> x = CWait) ->
  kinv (with_callers k (upd_nth c f (k_callers k))).
Proof.
  intros I Hr Hw. apply callers_inv; [exact I | apply count_run_upd, Hr|].
  intro W. left. apply In_upd_nth in W. destruct W as [W|[x [N E]]]; [exact W|].
  symmetry in E. apply Hw in E. subst x. eapply nth_error_In, N.
Qed.

Lemma add_caller_inv k c :
  kinv k -> is_run c = false -> (c = CWait -> k_run k <> None) -> kinv (add_caller k c).
Proof.
  intros I Hr Hw. apply callers_inv; [exact I | rewrite count_run_app, Hr; lia|].
  intro W. apply in_app_or in W. destruct W as [W|[W|[]]]; [left; exact W | right; exact (Hw W)].
Qed.

Lemma k_call_inv k : kinv k -> kinv (k_call k).
Proof.
  intro I. rewrite k_call_eq. destruct (cached k) eqn:C.
  { (* a fresh result: returned at once *) apply add_caller_inv; [exact I | reflexivity | discriminate]. }
  destruct (k_lock k) eqn:L; cbn [negb].
  2:{ (* a run is in flight: the caller waits *)
      apply add_caller_inv; [exact I | reflexivity|]. intros _ R. apply (i_lock k I) in R. congruence. }
  assert (R : k_run k = None) by (apply (i_lock k I); exact L).
  pose proof (i_runner k I) as CR. pose proof (i_spaced k I) as O. unfold invocations in O. rewrite R in CR, O.
  destruct (k_tmo k <=? 0) eqn:T; rewrite (i_tmo k I) in T.
  - constructor; fields; try apply I.
    + tauto.
    + rewrite count_run_app, CR. reflexivity.
    + intro W. apply in_app_or in W. destruct W as [W|[W|[]]]; [destruct (i_wait k I W R) | discriminate].
    + discriminate.
    + intros s e h Hy _. exists (k_now k). split; [reflexivity | apply (i_time k I _ _ _ Hy)].
    + unfold invocations. cbn [k_run k_log]. exact O.
  - (* a run starts: every older one has ended, and a cached result has expired *)
    constructor; fields; try apply I.
    + split; discriminate.
    + rewrite count_run_app, CR. reflexivity.
    + discriminate.
    + intros s dl p [= <- <- <-]. rewrite (i_tmo k I). repeat split; lia.
    + unfold invocations. cbn [k_run k_log app no_overlap ttl_spaced fst snd]. split; (split; [|apply O]).
      * intros y Hy. apply in_map_iff in Hy. destruct Hy as [[[s e] h] [<- Hy]]. exists e.
        split; [reflexivity | apply (i_time k I _ _ _ Hy)].
      * intros y e h Hy E1 E2 D. apply in_map_iff in Hy. destruct Hy as [[[s e'] h'] [<- Hy]].
        injection E1 as ->. injection E2 as ->. destruct (i_done k I _ _ _ Hy D) as [l [El Hl]].
        unfold cached in C. rewrite El, ttl_test_eq, (i_ttl k I) in C. lia.
Qed.

Lemma kstep_inv k op : kinv k -> kinv (kstep k op).
Proof.
  intro I. destruct op as [|c|r| |c| |dt]; cbn [kstep].
  - (* KCall *) apply k_call_inv, I.
  - (* KResume *) apply upd_callers_inv; [exact I | |]; intros []; (reflexivity || discriminate).
  - (* KFuncEnd *) destruct (runner_state k) as [[|]|]; try exact I. apply finish_inv, I.
  - (* KTimeout *) destruct (runner_state k); [|exact I]. destruct (deadline_of k) as [dl|]; [|exact I].
    destruct (dl <=? k_now k); [|exact I]. apply finish_inv, I.
  - (* KCancel *) apply upd_callers_inv; [exact I | |]; intros []; (reflexivity || discriminate).
  - (* KDeliver *) destruct (runner_state k) as [[|]|]; try exact I. apply abort_inv, I.
  - (* KAdvance: the clock stops at the deadline of the run in flight *)
    destruct (dt <=? 0) eqn:D; [exact I|].
    constructor; fields; try apply I.
    + intros s dl p E. destruct (i_run k I _ _ _ E) as (Edl & Ht & Hn & Ep). rewrite (deadline_inv k _ _ _ I E).
      repeat split; try assumption; lia.
    + intros s e h Hy. destruct (i_time k I _ _ _ Hy) as (A & B & C). repeat split; try assumption;
        destruct (deadline_of k); lia.
Qed.

Lemma krun_inv k ops : kinv k -> kinv (krun k ops).
Proof. revert k. induction ops as [|op r IH]; intros k I; [exact I|]. apply IH, kstep_inv, I. Qed.

Theorem single_flight k :
  kinv k -> (count_run (k_callers k) <= 1)%nat /\ no_overlap (invocations k).
Proof. intro I. split; [rewrite (i_runner k I); destruct (k_run k); lia | apply (i_spaced k I)]. Qed.

Theorem invocation_bound k :
  kinv k -> forall s e h, In (s, e, h) (invocations k) ->
  0 < tmo /\ match e with Some e' => s <= e' <= s + tmo | None => s <= k_now k <= s + tmo end.
Proof.
  intros I s e h Hin. unfold invocations in Hin. apply in_app_or in Hin. destruct Hin as [Hin|Hin].
  - destruct (k_run k) as [[[s' dl] p]|] eqn:E; [|contradiction].
    destruct Hin as [[= <- <- <-]|[]]. destruct (i_run k I _ _ _ E) as (_ & Ht & Hn & _). split; assumption.
  - apply in_map_iff in Hin. destruct Hin as [[[s' e'] h'] [[= <- <- <-] Hin]].
    destruct (i_time k I _ _ _ Hin) as (X & Y & Z0). lia.
Qed.

Theorem check_recovers k :
  kinv k -> cached k = false -> k_lock k = true -> 0 < k_tmo k ->
  let k' := krun k [KCall; KFuncEnd FTrue] in
  k_value k' = STrue /\ k_callers k' = end_callers (CRet STrue (k_now k)) (k_now k) (k_callers k) ++ [CRet STrue (k_now k)] /\
  run_over k'.
Proof.
  intros I C L T. cbn [krun fold_left kstep]. pose proof (k_call_inv k I) as I1. revert I1.
  rewrite k_call_eq, C, L. cbn [negb]. replace (k_tmo k <=? 0) with false by lia.
  set (k1 := mkK _ _ _ _ _ _ _ _ _ _). intro I1.
  rewrite (runner_state_flag k1 false I1) by (apply in_or_app; right; left; reflexivity).
  destruct (finish_result k1 (value_of_fres FTrue) (HRet FTrue) _ _ _ eq_refl) as (A & _ & O & _ & D).
  repeat split; try assumption; try apply O. rewrite D. unfold end_callers. cbn [k1 k_callers k_now]. apply map_app.
Qed.

Lemma finish_notifies k v h :
  kinv k -> k_value (finish k v h) <> k_value k ->
  k_notes (finish k v h) = (k_now k, k_value (finish k v h)) :: k_notes k.
Proof.
  intro I. rewrite finish_eq. destruct (k_run k) as [[[s dl] p]|] eqn:E; [|congruence].
  destruct (i_run k I _ _ _ E) as (_ & _ & _ & ->). fields. apply note_changed.
Qed.

Theorem change_notifies k op :
  kinv k -> k_value (kstep k op) <> k_value k ->
  k_notes (kstep k op) = (k_now k, k_value (kstep k op)) :: k_notes k.
Proof.
  intros I. destruct op as [|c|r| |c| |dt]; cbn [kstep]; try (cbn; congruence).
  - (* KCall: only a zero timeout writes the value *)
    rewrite k_call_eq. unfold add_caller. destruct (cached k); [cbn; congruence|].
    destruct (negb (k_lock k)); [cbn; congruence|]. destruct (k_tmo k <=? 0); [|cbn; congruence].
    fields. apply note_changed.
  - (* KFuncEnd *) destruct (runner_state k) as [[|]|]; try congruence. apply finish_notifies, I.
  - (* KTimeout *) destruct (runner_state k); [|congruence]. destruct (deadline_of k) as [dl|]; [|congruence].
    destruct (dl <=? k_now k); [|congruence]. apply finish_notifies, I.
  - (* KDeliver *) destruct (runner_state k) as [[|]|]; try congruence. rewrite abort_eq.
    destruct (k_run k) as [[[s dl] p]|]; cbn; congruence.
  - (* KAdvance *) destruct (dt <=? 0); cbn; congruence.
Qed.

Theorem cancel_reaches_caller_partial k c op :
  kinv k -> nth_error (k_callers k) c = Some (CRun true) ->
  (forall s dl p, k_run k = Some (s, dl, p) -> k_now k < s + k_tmo k) ->
  nth_error (k_callers (kstep k op)) c = Some (CRun true) \/
  nth_error (k_callers (kstep k op)) c = Some (CCancelled (k_now k)).
Proof.
  intros I N Hd. pose proof (nth_error_In _ _ N) as Hin.
  destruct (in_flight k I (or_intror (ex_intro _ true Hin))) as (s & p & E & _ & L).
  pose proof (runner_state_flag k true I Hin) as RS.
  assert (Hlen : (c < length (k_callers k))%nat) by (apply nth_error_Some; congruence).
  destruct op as [|c'|r| |c'| |dt]; cbn [kstep].
  - (* KCall *)
    left. rewrite k_call_eq. unfold add_caller. destruct (cached k); rewrite ?L; cbn [negb]; fields;
      rewrite nth_error_app1 by exact Hlen; exact N.
  - (* KResume *) left. fields. rewrite nth_error_upd_nth, N. destruct (Nat.eqb c c'); reflexivity.
  - (* KFuncEnd: ignored while the runner is being cancelled *) left. rewrite RS. exact N.
  - (* KTimeout: not yet due *)
    left. rewrite RS, (deadline_inv k _ _ _ I E). specialize (Hd _ _ _ E). rewrite (i_tmo k I) in Hd.
    replace (s + tmo <=? k_now k) with false by lia. exact N.
  - (* KCancel *) left. fields. rewrite nth_error_upd_nth, N. destruct (Nat.eqb c c'); reflexivity.
  - (* KDeliver *) right. rewrite RS, abort_eq, E. apply (end_callers_run _ _ _ _ _ N).
  - (* KAdvance *) left. destruct (dt <=? 0); exact N.
Qed.

End Invariant.

Definition kreach (k : sck) : Prop := exists ttl tmo t0 ops, k = krun (kinit ttl tmo t0) ops.

Lemma reach_inv ttl tmo t0 ops : kinv ttl tmo (krun (kinit ttl tmo t0) ops).
Proof. apply krun_inv, kinit_inv. Qed.

Lemma kreach_inv k : kreach k -> kinv (k_ttl k) (k_tmo k) k.
Proof.
  intros (ttl & tmo & t0 & ops & ->). pose proof (reach_inv ttl tmo t0 ops) as I.
  rewrite (i_ttl _ _ _ I), (i_tmo _ _ _ I). exact I.
Qed.

(* two full-strength statements that are FALSE of the faithful model *)

(* strict reading of "at most once per TTL": ANY two runs are check_ttl apart *)
Fixpoint strict_spaced (ttl : Z) (l : list (Z * option Z * option how)) : Prop :=
  match l with
  | [] => True
  | x :: r => (forall y e, In y r -> snd (fst y) = Some e -> e + ttl <= fst (fst x)) /\ strict_spaced ttl r
  end.

(* a caller that is cancelled while it runs the function takes the shared run down with it; nothing is
   cached, so the very next call runs the function again: two runs 8 ticks apart with check_ttl = 240 *)
Definition rerun_witness : list kop := [KCall; KAdvance 8; KCancel 0; KDeliver; KAdvance 8; KCall].

Lemma once_per_ttl_strict_refuted :
  exists ttl tmo ops, 0 < ttl /\ 0 < tmo /\ ~ strict_spaced ttl (invocations (krun (kinit ttl tmo 0) ops)).
Proof.
  exists 240, 80, rerun_witness. split; [lia|]. split; [lia|].
  assert (E : invocations (krun (kinit 240 80 0) rerun_witness) = [(16, None, None); (0, Some 8, Some HAborted)])
    by (vm_compute; reflexivity).
  rewrite E. intros [H _]. specialize (H (0, Some 8, Some HAborted) 8 (or_introl eq_refl) eq_refl).
  cbn in H. lia.
Qed.

(* "a caller whose task was cancelled before it finished never returns a value": false when the
   cancellation is requested in the instant the deadline timer fires (Wrapper.__exit__ replaces the
   CancelledError by the TimeoutError, which __check__ swallows) *)
Definition lost_cancel_witness : list kop := [KCall; KAdvance 80; KCancel 0; KTimeout].

Lemma cancel_reaches_caller_refuted :
  exists ttl tmo ops1 c ops2,
    nth_error (k_callers (krun (kinit ttl tmo 0) ops1)) c = Some (CRun false) /\
    nth_error (k_callers (krun (kinit ttl tmo 0) (ops1 ++ [KCancel c]))) c = Some (CRun true) /\
    nth_error (k_callers (krun (kinit ttl tmo 0) (ops1 ++ KCancel c :: ops2))) c = Some (CRet SFalse 80).
Proof.
  (* lost_cancel_witness, cut at the cancellation *)
  exists 240, 80, [KCall; KAdvance 80], 0%nat, [KTimeout]. repeat split; vm_compute; reflexivity.
Qed.
