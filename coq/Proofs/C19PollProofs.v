(* Proofs for Props/C19.v, part 4: whoever is subscribed to a ServiceCheck is served by a live poll task,
   for ALL interleavings of subscribe / unsubscribe (suspended in `await task`) / poll task end. *)
From Coq Require Import ZArith List Bool Lia Arith.
From GV Require Import Gen.FactsC19 Model.Health.
Import ListNotations.

Definition poll_ok (s : pstate) : Prop :=
  p_err s = false /\
  (forall t, p_poll s = Some t -> In (t, false) (p_live s)) /\
  (p_events s = 0%nat <-> p_poll s = None).

Lemma pinit_ok : poll_ok pinit.
Proof. repeat split; cbn; try discriminate; auto. Qed.

Lemma in_mark_other t t' l : t' <> t -> In (t', false) l -> In (t', false) (mark_cancel t l).
Proof.
  intros N H. unfold mark_cancel. apply in_map_iff. exists (t', false). split; [|exact H].
  cbn. destruct (Nat.eqb t' t) eqn:E; [apply Nat.eqb_eq in E; congruence | reflexivity].
Qed.

Lemma pstep_ok s op : poll_ok s -> poll_ok (pstep s op).
Proof.
  intros [He [Hp Hz]]. destruct op as [| |t|t]; cbn [pstep].
  - (* PSub *) change subscribe_starts_poll_when_none with true. cbn match.
    destruct (p_poll s) as [t|] eqn:P; cbn [p_err p_poll p_live p_events].
    + split; [exact He|]. split; [intros t' E; apply Hp; exact E|].
      split; discriminate.
    + split; [exact He|]. split.
      * intros t' E. injection E as <-. apply in_or_app. right. left. reflexivity.
      * split; discriminate.
  - (* PUnsub *) destruct (p_events s) as [|[|n]] eqn:E.
    + split; [exact He|]. split; [exact Hp|]. rewrite E. exact Hz.
    + destruct (p_poll s) as [t|] eqn:P.
      * change poll_cleared_before_await with true. cbn [p_err p_poll p_live p_events].
        split; [exact He|]. split; [discriminate|]. split; reflexivity.
      * exfalso. destruct Hz as [_ Hz]. specialize (Hz eq_refl). discriminate.
    + cbn [p_err p_poll p_live p_events]. split; [exact He|]. split; [exact Hp|].
      split; [discriminate|]. intro P. apply Hz in P. discriminate.
  - (* PTaskEnd *) cbn [p_err p_poll p_live p_events]. split; [exact He|]. split; [|exact Hz].
    intros t' E. apply filter_In. split; [apply Hp, E|]. cbn. rewrite andb_false_r. reflexivity.
  - (* PUnsubResume *)
    destruct (nat_mem t (p_waiting s) && negb (is_live t (p_live s))).
    + change poll_cleared_before_await with true. cbn [p_err p_poll p_live p_events].
      split; [exact He|]. split; [exact Hp | exact Hz].
    + split; [exact He|]. split; [exact Hp | exact Hz].
Qed.

Lemma prun_ok s ops : poll_ok s -> poll_ok (prun s ops).
Proof. revert s. induction ops as [|op r IH]; intros s H; [exact H|]. apply IH, pstep_ok, H. Qed.

Theorem poll_alive ops :
  let s := prun pinit ops in
  p_err s = false /\
  ((0 < p_events s)%nat -> exists t, p_poll s = Some t /\ In (t, false) (p_live s)) /\
  (p_events s = 0%nat -> p_poll s = None).
Proof.
  intro s. destruct (prun_ok pinit ops pinit_ok) as [He [Hp Hz]]. fold s in He, Hp, Hz.
  split; [exact He|]. split; [|apply Hz].
  intro H. destruct (p_poll s) as [t|].
  - exists t. split; [reflexivity | apply Hp, eq_refl].
  - destruct Hz as [_ Hz]. specialize (Hz eq_refl). lia.
Qed.

(* the adjacent-iterations case: the last watcher leaves, the next one joins while that __unsubscribe__
   is still suspended, in either order of the following steps *)
Example poll_handover :
  let s := prun pinit [PSub; PUnsub; PSub; PTaskEnd 0; PUnsubResume 0] in
  p_events s = 1%nat /\ p_poll s = Some 1%nat /\ p_live s = [(1%nat, false)] /\ p_waiting s = [] /\ p_err s = false.
Proof. vm_compute. repeat split. Qed.

Example poll_handover_settle :
  let s := psettle (prun pinit [PSub; PSub; PUnsub; PUnsub; PSub]) in
  p_events s = 1%nat /\ p_poll s = Some 1%nat /\ live_pollers s = 1%nat /\ p_waiting s = [].
Proof. vm_compute. repeat split. Qed.
