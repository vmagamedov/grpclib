(* Proofs for Props/C18.v: listener dispatch (grpclib/events.py) -- order, interruption, payload
   composition, read-only rule, identity fast path, use sites. *)
From Coq Require Import String ZArith List Bool.
From GV Require Import Lib.Str Lib.StrFacts Gen.Facts Gen.FactsC18 Model.Events.
Import ListNotations.
Open Scope Z_scope.

Lemma zlist_eqb_sym a b : zlist_eqb a b = zlist_eqb b a.
Proof. destruct (zlist_eqb_spec a b), (zlist_eqb_spec b a); congruence. Qed.

Lemma zlist_eqb_neq a b : zlist_eqb a b = false -> a <> b.
Proof. destruct (zlist_eqb_spec a b); congruence. Qed.

Lemma mem_str_false_In k l : mem_str k l = false -> ~ In k l.
Proof. intros H HI. apply mem_str_In in HI. congruence. Qed.

Lemma mem_str_filter k (p : list Z -> bool) l :
  mem_str k (filter p l) = mem_str k l && p k.
Proof. apply eq_true_iff_eq. rewrite andb_true_iff, !mem_str_In. apply filter_In. Qed.

Lemma mem_str_app k a b : mem_str k (a ++ b) = mem_str k a || mem_str k b.
Proof. apply existsb_app. Qed.

Lemma assoc_str_is_some {A} k (l : list (list Z * A)) :
  is_some (assoc_str k l) = mem_str k (map fst l).
Proof.
  induction l as [|[k' v] l IH]; [reflexivity|].
  cbn [assoc_str map fst]. unfold mem_str. cbn [existsb].
  destruct (zlist_eqb k k'); [reflexivity|exact IH].
Qed.

Lemma assoc_str_map_self {A} (g : list Z -> A) k l :
  mem_str k l = true -> assoc_str k (map (fun f => (f, g f)) l) = Some (g k).
Proof.
  induction l as [|x l IH]; intros H; [discriminate|].
  cbn [map assoc_str]. unfold mem_str in H. cbn [existsb] in H.
  destruct (zlist_eqb_spec k x) as [->|_]; [reflexivity|exact (IH H)].
Qed.

Lemma nodup_str_app_l a b : nodup_str (a ++ b) = true -> nodup_str a = true.
Proof.
  induction a as [|x a IH]; intros H; [reflexivity|].
  cbn [app nodup_str] in *. apply andb_true_iff in H as [H1 H2].
  rewrite mem_str_app in H1. apply negb_true_iff, orb_false_iff in H1 as [-> _]. exact (IH H2).
Qed.

Lemma upto_spec {A} (p : A -> bool) l :
  (upto p l = l /\ forallb (fun x => negb (p x)) (removelast l) = true)
  \/ (exists pre x post, l = pre ++ x :: post /\ upto p l = pre ++ [x] /\ p x = true
                          /\ forallb (fun y => negb (p y)) pre = true).
Proof.
  induction l as [|x l IH].
  - left. split; reflexivity.
  - cbn [upto]. destruct (p x) eqn:Px.
    + right. exists [], x, l. cbn. auto.
    + destruct IH as [[E F]|[pre [y [post [E [U [Py F]]]]]]].
      * left. rewrite E. split; [reflexivity|].
        destruct l as [|z l']; [reflexivity|].
        change (removelast (x :: z :: l')) with (x :: removelast (z :: l')).
        cbn [forallb]. rewrite Px. exact F.
      * right. exists (x :: pre), y, post. rewrite U. split; [exact (f_equal (cons x) E)|].
        cbn [app forallb]. rewrite Px. auto.
Qed.

Lemma upto_none {A} (p : A -> bool) l : forallb (fun x => negb (p x)) l = true -> upto p l = l.
Proof.
  induction l as [|x l IH]; intros H; [reflexivity|].
  cbn [forallb] in H. apply andb_true_iff in H as [H1 H2]. apply negb_true_iff in H1.
  cbn [upto]. rewrite H1, IH by exact H2. reflexivity.
Qed.

Lemma upto_ext {A} (p q : A -> bool) l : (forall x, In x l -> p x = q x) -> upto p l = upto q l.
Proof.
  induction l as [|x l IH]; intros H; [reflexivity|].
  cbn [upto]. rewrite (H x (or_introl eq_refl)). rewrite IH; [reflexivity|].
  intros y Hy. apply H. right. exact Hy.
Qed.

Lemma In_upto {A} (p : A -> bool) l x : In x (upto p l) -> In x l.
Proof.
  induction l as [|y l IH]; [auto|]. cbn [upto]. intros [E|H]; [left; exact E|right].
  destruct (p y); [contradiction|auto].
Qed.

Lemma readonly_mem c f :
  mem_str f (readonly c) = mem_str f (ec_fields c) && negb (mem_str f (ec_payload c)).
Proof. apply (mem_str_filter f (fun g => negb (mem_str g (ec_payload c)))). Qed.

Lemma field_kind_slot c f :
  field_kind c f = FSlot <-> (mem_str f (ec_fields c) = true /\ mem_str f (ec_payload c) = true).
Proof.
  unfold field_kind. rewrite readonly_mem.
  destruct (mem_str f (ec_fields c)), (mem_str f (ec_payload c)); cbn;
    try destruct (zlist_eqb f interrupted_name); intuition discriminate.
Qed.

Lemma field_kind_nonpayload c f :
  mem_str f (ec_payload c) = false -> zlist_eqb f interrupted_name = false ->
  field_kind c f = FReadOnly \/ field_kind c f = FNone.
Proof.
  intros Hp Hi. unfold field_kind. rewrite readonly_mem, Hp, Hi.
  destruct (mem_str f (ec_fields c)); cbn; auto.
Qed.

Lemma field_kind_readonly c f :
  mem_str f (ec_fields c) = true -> mem_str f (ec_payload c) = false -> field_kind c f = FReadOnly.
Proof. intros Hf Hp. unfold field_kind. rewrite readonly_mem, Hf, Hp. reflexivity. Qed.

Lemma payload_assign ev f v :
  mem_str f (ec_fields (ev_cls ev)) = true -> mem_str f (ec_payload (ev_cls ev)) = true ->
  exists ev', set_field ev f v = Some ev' /\ get_field ev' f = Some v
              /\ ev_cls ev' = ev_cls ev /\ ev_int ev' = ev_int ev.
Proof.
  intros Hf Hp. unfold set_field. rewrite (proj2 (field_kind_slot _ _) (conj Hf Hp)).
  eexists. split; [reflexivity|].
  unfold get_field, with_val. cbn [ev_cls ev_vals ev_int assoc_str]. rewrite Hf, zlist_eqb_refl. auto.
Qed.

(* what _Event.__init__ establishes and every statement keeps; the class is a parameter (always
   `ev_cls` of the event the dispatch started from) so that "the class is kept" is part of it *)
Definition ok (c : eclass) (ev : event) : Prop := ev_cls ev = c /\ wf_event ev = true.

Lemma ok_assoc c ev f :
  ok c ev -> mem_str f (ec_fields c) = true -> assoc_str f (ev_vals ev) = Some (field_or_nil ev f).
Proof.
  unfold ok, wf_event, field_or_nil. intros [<- W] M. rewrite forallb_forall in W.
  specialize (W f (proj1 (mem_str_In _ _) M)).
  destruct (assoc_str f (ev_vals ev)); [reflexivity|discriminate].
Qed.

Lemma ok_with_val c ev f v : ok c ev -> ok c (with_val ev f v).
Proof.
  unfold ok, wf_event, with_val. cbn [ev_cls ev_vals]. intros [E W]. split; [exact E|].
  rewrite forallb_forall in *. intros g Hg. cbn [assoc_str].
  destruct (zlist_eqb g f); [reflexivity|auto].
Qed.

Lemma refuse_eq ev g : refuse ev g = (ev, g, if g then None else Some XAttr).
Proof. destruct g; reflexivity. Qed.

(* run_action without the branches that a set slot rules out: the read of `event.f = event.f + v`
   succeeds *)
Lemma run_action_eq c ev a :
  ok c ev ->
  run_action ev a =
    match a with
    | AInterrupt => (with_int ev true, false, None)
    | ASet f v g =>
        match field_kind c f with
        | FSlot => (with_val ev f v, false, None)
        | FFlag => (with_int ev (truthy v), false, None)
        | _ => refuse ev g
        end
    | AApp f v g =>
        match field_kind c f with
        | FSlot => (with_val ev f (field_or_nil ev f ++ v), false, None)
        | FFlag => (ev, false, Some XType)
        | _ => refuse ev g
        end
    end.
Proof.
  intros [E W]. destruct a as [f v g|f v g|]; cbn [run_action]; [| |reflexivity].
  - unfold set_field. rewrite E. destruct (field_kind c f); reflexivity.
  - rewrite E. destruct (field_kind c f) eqn:K; try reflexivity.
    destruct (proj1 (field_kind_slot _ _) K) as [Hf _].
    unfold get_field, set_field. rewrite E, Hf, (ok_assoc c ev f (conj E W) Hf), K. reflexivity.
Qed.

(* the outcome of a statement is its control effect: acts_ctl goes on after it as run_actions does *)
Lemma run_action_ctl c ev a r :
  ok c ev ->
  let '(ev', _, x) := run_action ev a in
  ok c ev'
  /\ acts_ctl c (a :: r) (ev_int ev)
     = match x with Some e => (ev_int ev', Some e) | None => acts_ctl c r (ev_int ev') end.
Proof.
  intros O. rewrite (run_action_eq c ev a O). pose proof (ok_with_val c ev) as WV. cbn [acts_ctl].
  destruct a as [f v g|f v g|]; cbn [action_ctl]; [destruct (field_kind c f)..|];
    rewrite ?refuse_eq; try destruct g; split; auto; exact O.
Qed.

Lemma field_or_nil_with_val ev f g v :
  field_or_nil (with_val ev g v) f = if zlist_eqb g f then v else field_or_nil ev f.
Proof.
  unfold field_or_nil, with_val. cbn [ev_vals assoc_str]. rewrite (zlist_eqb_sym f g).
  destruct (zlist_eqb g f); reflexivity.
Qed.

(* ... and its effect on a slot is the write *)
Lemma run_action_field c ev a f :
  ok c ev -> field_kind c f = FSlot ->
  field_or_nil (fst (fst (run_action ev a))) f = write_of f (field_or_nil ev f) a.
Proof.
  intros O K. rewrite (run_action_eq c ev a O).
  destruct a as [f' v g|f' v g|]; cbn [write_of]; [| |reflexivity];
    destruct (field_kind c f') eqn:K'; rewrite ?refuse_eq; cbn [fst].
  (* an assignment to a slot f' stores the value there, which is the write whether f' is f or not;
     to anything else it leaves the values alone, and then f' is not f, which is a slot *)
  all: rewrite ?field_or_nil_with_val; destruct (zlist_eqb_spec f' f) as [->|_];
       [congruence|reflexivity].
Qed.

(* a statement of a plain listener is not refused *)
Lemma plain_action_runs c ev a :
  ok c ev -> plain_action c a = true -> snd (fst (run_action ev a)) = false.
Proof.
  intros O P. rewrite (run_action_eq c ev a O).
  destruct a as [f v g|f v g|]; cbn [plain_action] in P;
    [destruct (field_kind c f); try discriminate P..|]; reflexivity.
Qed.

(* The statements of a listener: the class and the set slots are kept; flag and escaping exception
   are the ones acts_ctl computes; if nothing escapes, every slot holds the composition of the
   writes; statements of a plain listener record no refusal. *)
Lemma run_actions_spec c acts : forall i ev,
  ok c ev ->
  let '(ev', errs, x) := run_actions i acts ev in
  ok c ev'
  /\ acts_ctl c acts (ev_int ev) = (ev_int ev', x)
  /\ (x = None -> forall f, field_kind c f = FSlot ->
      field_or_nil ev' f = final_value f acts (field_or_nil ev f))
  /\ (forallb (plain_action c) acts = true -> errs = []).
Proof.
  induction acts as [|a r IH]; intros i ev O; [cbn; auto|].
  cbn [run_actions forallb].
  pose proof (run_action_ctl c ev a r O) as A. pose proof (run_action_field c ev a) as F.
  pose proof (plain_action_runs c ev a O) as P.
  destruct (run_action ev a) as [[ev1 refused] [e|]]; cbn [fst snd] in F, P; destruct A as [O1 ->].
  - (* the statement raises: the run ends with ev1 *)
    split; [exact O1|]. split; [reflexivity|]. split; [discriminate|reflexivity].
  - (* otherwise the rest runs from ev1 *)
    specialize (IH (i + 1) ev1 O1). destruct (run_actions (i + 1) r ev1) as [[ev2 errs] x2].
    destruct IH as (O2 & C2 & F2 & P2). split; [exact O2|]. split; [exact C2|]. split.
    + intros N f K. rewrite (F2 N f K), (F f O K). reflexivity.
    + intros PP. apply andb_true_iff in PP as [Pa Pr]. rewrite (P Pa), (P2 Pr). reflexivity.
Qed.

Lemma acts_ctl_snd c acts : forall b1 b2, snd (acts_ctl c acts b1) = snd (acts_ctl c acts b2).
Proof.
  induction acts as [|a r IH]; intros b1 b2; [reflexivity|].
  cbn [acts_ctl]. destruct (action_ctl c a); auto.
Qed.

Lemma dispatch_spec c ls : forall ev,
  ok c ev -> ev_int ev = false ->
  d_log (dispatch ls ev) = map l_id (upto (l_stops c) ls)
  /\ d_out (dispatch ls ev) =
       match first_raise c (upto (l_stops c) ls) with
       | Some e => inr e
       | None => payload_out (effect (upto (l_stops c) ls) ev)
       end
  /\ ((forall l, In l ls -> plain c l = true) -> d_errs (dispatch ls ev) = []).
Proof.
  induction ls as [|l rest IH]; intros ev O I; [repeat split|].
  cbn [dispatch upto map first_raise].
  pose proof (run_actions_spec c (l_acts l) 0 ev O) as R. rewrite I in R.
  change (effect (l :: ?r) ev) with (effect r (ev_after l ev)).
  unfold l_stops, l_interrupts, l_raises, ev_after.
  destruct (run_actions 0 (l_acts l) ev) as [[ev' errs] x]. destruct R as (O' & -> & _ & E).
  cbn [fst snd].
  destruct x as [e|]; cbn [is_some];
    [rewrite orb_true_r|rewrite orb_false_r; destruct (ev_int ev') eqn:I'].
  - (* the listener raises *)
    repeat split. intros P. rewrite (E (P l (in_eq l rest))). reflexivity.
  - (* it interrupts *)
    repeat split. intros P. rewrite (E (P l (in_eq l rest))). reflexivity.
  - (* the loop goes on *)
    destruct (IH ev' O' I') as (L & Out & Er). cbn [d_log d_out d_errs]. rewrite L, Out.
    repeat split. intros P. rewrite (E (P l (in_eq l rest))), Er by auto using in_cons. reflexivity.
Qed.

Lemma final_value_app f a b v : final_value f (a ++ b) v = final_value f b (final_value f a v).
Proof. apply fold_left_app. Qed.

Lemma effect_spec c ls : forall ev,
  ok c ev ->
  ok c (effect ls ev)
  /\ ((forall l, In l ls -> l_raises c l = None) ->
      forall f, field_kind c f = FSlot ->
      field_or_nil (effect ls ev) f = final_value f (acts_of ls) (field_or_nil ev f)).
Proof.
  induction ls as [|l r IH]; intros ev O; [auto|].
  change (effect (l :: r) ev) with (effect r (ev_after l ev)).
  change (acts_of (l :: r)) with (l_acts l ++ acts_of r).
  pose proof (run_actions_spec c (l_acts l) 0 ev O) as R. unfold ev_after.
  destruct (run_actions 0 (l_acts l) ev) as [[ev' errs] x]. destruct R as (O' & C & F & _).
  cbn [fst]. destruct (IH ev' O') as [Oe Fe]. split; [exact Oe|].
  intros NR f K.
  assert (N : x = None).
  { rewrite <- (NR l (in_eq l r)). unfold l_raises.
    rewrite (acts_ctl_snd _ _ false (ev_int ev)), C. reflexivity. }
  rewrite Fe, final_value_app, (F N f K) by auto using in_cons. reflexivity.
Qed.

Lemma payload_vals_all vals names g :
  (forall n, In n names -> assoc_str n vals = Some (g n)) ->
  payload_vals vals names = Some (map g names).
Proof.
  induction names as [|n r IH]; intros H; [reflexivity|].
  cbn [payload_vals map]. rewrite (H n (in_eq n r)), IH by auto using in_cons. reflexivity.
Qed.

Lemma class_ok_payload c p : class_ok c = true -> In p (ec_payload c) -> mem_str p (ec_fields c) = true.
Proof.
  unfold class_ok. rewrite !andb_true_iff, forallb_forall. intros [[CO _] _]. exact (CO p).
Qed.

Lemma payload_slot c p :
  class_ok c = true -> In p (ec_payload c) -> field_kind c p = FSlot.
Proof.
  intros CO Hp. apply field_kind_slot. split; [exact (class_ok_payload c p CO Hp)|].
  apply mem_str_In. exact Hp.
Qed.

Lemma payload_out_ok c ev :
  ok c ev -> class_ok c = true -> payload_out ev = inl (map (field_or_nil ev) (ec_payload c)).
Proof.
  intros O CO. unfold payload_out. rewrite (proj1 O).
  rewrite (payload_vals_all _ _ (field_or_nil ev)); [reflexivity|].
  intros n Hn. apply (ok_assoc c ev n O). exact (class_ok_payload _ n CO Hn).
Qed.

Lemma first_raise_none c ls : (forall l, In l ls -> l_raises c l = None) -> first_raise c ls = None.
Proof.
  induction ls as [|l r IH]; intros H; [reflexivity|].
  cbn [first_raise]. rewrite (H l (in_eq l r)). auto using in_cons.
Qed.

(* only the listeners that are invoked need to run without raising *)
Lemma dispatch_fieldwise c ls ev :
  ok c ev -> ev_int ev = false -> class_ok c = true ->
  (forall l, In l (upto (l_stops c) ls) -> l_raises c l = None) ->
  d_out (dispatch ls ev) =
    inl (map (fun p => final_value p (acts_of (upto (l_stops c) ls)) (field_or_nil ev p))
             (ec_payload c)).
Proof.
  intros O I CO NR. destruct (dispatch_spec c ls ev O I) as (_ & -> & _).
  rewrite (first_raise_none _ _ NR).
  destruct (effect_spec c (upto (l_stops c) ls) ev O) as [Oe Fe].
  rewrite (payload_out_ok c _ Oe CO).
  f_equal. apply map_ext_in. intros p Hp. apply (Fe NR). exact (payload_slot _ p CO Hp).
Qed.

Lemma last_write_wins f acts : forall v0,
  no_app acts = true ->
  final_value f acts v0 = match last_set f acts with Some v => v | None => v0 end.
Proof.
  induction acts as [|a r IH]; intros v0 NA; [reflexivity|].
  cbn [no_app forallb] in NA. apply andb_true_iff in NA as [Na NA].
  unfold final_value in *. cbn [fold_left last_set].
  rewrite IH by exact NA.
  destruct (last_set f r); [reflexivity|].
  destruct a as [f' w g|f' w g|]; cbn [write_of]; try discriminate; try reflexivity.
  destruct (zlist_eqb f' f); reflexivity.
Qed.

Lemma plain_ctl c acts : forall flag,
  forallb (plain_action c) acts = true ->
  acts_ctl c acts flag
    = (flag || existsb (fun a => match a with AInterrupt => true | _ => false end) acts, None).
Proof.
  induction acts as [|a r IH]; intros flag H.
  - cbn. rewrite orb_false_r. reflexivity.
  - cbn [forallb] in H. apply andb_true_iff in H as [Ha H]. cbn [acts_ctl existsb].
    destruct a as [f v g|f v g|]; cbn [plain_action action_ctl] in *;
      [destruct (field_kind c f); try discriminate; exact (IH flag H)..|].
    (* interrupt() *) rewrite IH by exact H. cbn. rewrite orb_true_r. reflexivity.
Qed.

Lemma plain_stops c l : plain c l = true -> l_stops c l = calls_interrupt l /\ l_raises c l = None.
Proof.
  intros H. unfold l_stops, l_interrupts, l_raises, calls_interrupt.
  rewrite (plain_ctl c (l_acts l) false H). cbn. rewrite orb_false_r. auto.
Qed.

Lemma dispatch_plain ls ev :
  wf_event ev = true -> ev_int ev = false -> class_ok (ev_cls ev) = true ->
  forallb (plain (ev_cls ev)) ls = true ->
  d_log (dispatch ls ev) = map l_id (upto calls_interrupt ls)
  /\ d_errs (dispatch ls ev) = []
  /\ d_out (dispatch ls ev) =
       inl (map (fun p => final_value p (acts_of (upto calls_interrupt ls)) (field_or_nil ev p))
                (ec_payload (ev_cls ev))).
Proof.
  intros W I CO P. rewrite forallb_forall in P. pose proof (conj eq_refl W : ok (ev_cls ev) ev) as O.
  rewrite <- (upto_ext (l_stops (ev_cls ev)) calls_interrupt ls)
    by (intros l Hl; apply plain_stops; auto).
  destruct (dispatch_spec _ ls ev O I) as (L & _ & E). split; [exact L|]. split; [exact (E P)|].
  apply dispatch_fieldwise; auto. intros l Hl. apply plain_stops, P. exact (In_upto _ _ _ Hl).
Qed.

Lemma inert_action_runs ev a :
  inert_action (ev_cls ev) a = true -> run_action ev a = (ev, true, None).
Proof.
  intros H. destruct a as [f v g|f v g|]; [| |discriminate]; cbn [inert_action] in H;
    apply andb_true_iff in H as [-> K]; cbn [run_action]; unfold set_field;
    destruct (field_kind (ev_cls ev) f); discriminate || reflexivity.
Qed.

Lemma inert_actions acts : forall i ev,
  forallb (inert_action (ev_cls ev)) acts = true ->
  exists errs, run_actions i acts ev = (ev, errs, None).
Proof.
  induction acts as [|a r IH]; intros i ev H; [eexists; reflexivity|].
  cbn [forallb] in H. apply andb_true_iff in H as [Ha H].
  cbn [run_actions]. rewrite (inert_action_runs ev a Ha).
  destruct (IH (i + 1) ev H) as [errs ->]. eexists. reflexivity.
Qed.

Lemma dispatch_inert ls : forall ev,
  ev_int ev = false -> forallb (inert (ev_cls ev)) ls = true ->
  d_log (dispatch ls ev) = map l_id ls /\ d_out (dispatch ls ev) = d_out (dispatch [] ev).
Proof.
  induction ls as [|l r IH]; intros ev I H; [auto|].
  cbn [forallb] in H. apply andb_true_iff in H as [Hl H].
  cbn [dispatch]. destruct (inert_actions (l_acts l) 0 ev Hl) as [errs ->].
  rewrite I. cbn [d_log d_out map]. destruct (IH ev I H) as [L O]. rewrite L, O. auto.
Qed.

Lemma find_by_key {A} (key : A -> name) (hs : list A) h :
  nodup_str (map key hs) = true -> In h hs ->
  find (fun x => zlist_eqb (key h) (key x)) hs = Some h.
Proof.
  induction hs as [|x r IH]; intros ND HI; [contradiction|].
  cbn [map nodup_str] in ND. apply andb_true_iff in ND as [N1 N2]. apply negb_true_iff in N1.
  cbn [find]. destruct HI as [->|HI]; [rewrite zlist_eqb_refl; reflexivity|].
  destruct (zlist_eqb_spec (key h) (key x)) as [E|_]; [|auto].
  exfalso. apply (mem_str_false_In _ _ N1). rewrite <- E. apply in_map. exact HI.
Qed.

Lemma find_hook_self hs h :
  hooks_distinct hs = true -> In h hs -> find_hook hs (h_meth h) = Some h.
Proof. intros D. apply andb_true_iff in D as [D _]. exact (find_by_key h_meth hs h D). Qed.

Lemma hook_for_event_self hs h :
  hooks_distinct hs = true -> In h hs -> hook_for_event hs (h_event h) = Some h.
Proof. intros D. apply andb_true_iff in D as [_ D]. exact (find_by_key h_event hs h D). Qed.

Lemma add_listener_some d e l d' :
  add_listener d e l = Some d' ->
  exists h, hook_for_event (do_hooks d) e = Some h
            /\ d' = {| do_hooks := do_hooks d; do_reg := do_reg d ++ [(e, l)];
                       do_fast := filter (fun m => negb (zlist_eqb m (h_meth h))) (do_fast d) |}.
Proof.
  unfold add_listener. destruct (hook_for_event (do_hooks d) e) as [h|]; [|discriminate].
  intros [= <-]. eauto.
Qed.

Lemma listeners_of_add d e l d' e' :
  add_listener d e l = Some d' ->
  listeners_of d' e' = listeners_of d e' ++ (if zlist_eqb e e' then [l] else []).
Proof.
  intros A. destruct (add_listener_some _ _ _ _ A) as (h & _ & ->).
  unfold listeners_of. cbn [do_reg]. rewrite filter_app, map_app. cbn [filter fst].
  destruct (zlist_eqb e e'); reflexivity.
Qed.

Lemma add_listener_spec d e l :
  match add_listener d e l with
  | None => hook_for_event (do_hooks d) e = None
  | Some d' =>
      exists h, hook_for_event (do_hooks d) e = Some h
                /\ listeners_of d' e = listeners_of d e ++ [l]
                /\ (forall e', zlist_eqb e e' = false -> listeners_of d' e' = listeners_of d e')
                /\ mem_str (h_meth h) (do_fast d') = false
                /\ do_hooks d' = do_hooks d
  end.
Proof.
  destruct (add_listener d e l) as [d'|] eqn:A.
  - pose proof (listeners_of_add d e l d') as LA.
    destruct (add_listener_some _ _ _ _ A) as (h & HE & E). exists h.
    split; [exact HE|]. split; [|split; [|split]].
    + rewrite (LA e A), zlist_eqb_refl. reflexivity.
    + intros e' Ne. rewrite (LA e' A), Ne. apply app_nil_r.
    + rewrite E. cbn [do_fast].
      rewrite (mem_str_filter _ (fun m => negb (zlist_eqb m (h_meth h)))), zlist_eqb_refl.
      apply andb_false_r.
    + rewrite E. reflexivity.
  - unfold add_listener in A. destruct (hook_for_event (do_hooks d) e); [discriminate|reflexivity].
Qed.

Lemma listeners_of_register regs : forall d e,
  listeners_of (register d regs) e
  = listeners_of d e
    ++ map snd (filter (fun r => zlist_eqb (fst r) e
                                 && is_some (hook_for_event (do_hooks d) (fst r))) regs).
Proof.
  induction regs as [|[e0 l] r IH]; intros d e; [symmetry; apply app_nil_r|].
  cbn [register filter fst]. rewrite IH. destruct (add_listener d e0 l) as [d'|] eqn:A.
  - rewrite (listeners_of_add _ _ _ _ e A). destruct (add_listener_some _ _ _ _ A) as (h & -> & ->).
    cbn [is_some do_hooks]. rewrite andb_true_r, <- app_assoc. destruct (zlist_eqb e0 e); reflexivity.
  - unfold add_listener in A. destruct (hook_for_event (do_hooks d) e0); [discriminate|].
    cbn [is_some]. rewrite andb_false_r. reflexivity.
Qed.

(* a hook still shadowed by the identity has no listener *)
Definition fast_inv (d : dobj) : Prop :=
  forall h, In h (do_hooks d) -> mem_str (h_meth h) (do_fast d) = true ->
            listeners_of d (h_event h) = [].

Lemma fast_inv_add d e l d' :
  hooks_distinct (do_hooks d) = true -> fast_inv d -> add_listener d e l = Some d' -> fast_inv d'.
Proof.
  intros D Inv A h HI HF. rewrite (listeners_of_add _ _ _ _ (h_event h) A).
  destruct (add_listener_some _ _ _ _ A) as (h0 & HE & ->). cbn [do_hooks do_fast] in HI, HF.
  rewrite (mem_str_filter _ (fun m => negb (zlist_eqb m (h_meth h0)))) in HF.
  apply andb_true_iff in HF as [HF1 HF2]. rewrite (Inv h HI HF1).
  destruct (zlist_eqb_spec e (h_event h)) as [->|_]; [|reflexivity].
  (* the event's hook is h itself, whose shadow has just been removed *)
  rewrite (hook_for_event_self _ _ D HI) in HE. injection HE as <-.
  rewrite zlist_eqb_refl in HF2. discriminate.
Qed.

Lemma fast_inv_register hs regs : forall d,
  hooks_distinct hs = true -> do_hooks d = hs -> fast_inv d ->
  do_hooks (register d regs) = hs /\ fast_inv (register d regs).
Proof.
  induction regs as [|[e l] r IH]; intros d D Hd Inv; [auto|].
  cbn [register]. destruct (add_listener d e l) as [d'|] eqn:A; [|auto].
  apply IH; [exact D| |rewrite <- Hd in D; exact (fast_inv_add _ _ _ _ D Inv A)].
  destruct (add_listener_some _ _ _ _ A) as (h & _ & ->). exact Hd.
Qed.

Lemma combine_forallb_eq {A B} (R : A -> B -> bool) (g : B -> A) :
  (forall a b, R a b = true -> a = g b) ->
  forall l l', length l = length l' ->
  forallb (fun p => R (fst p) (snd p)) (combine l l') = true -> l = map g l'.
Proof.
  intros HR. induction l as [|x l IH]; intros [|y l'] L H; cbn [length] in L; try discriminate L;
    [reflexivity|].
  cbn [combine forallb fst snd] in H. apply andb_true_iff in H as [H1 H2].
  cbn [map]. rewrite <- (HR x y H1), <- (IH l') by congruence. reflexivity.
Qed.

Lemma map_fst_combine {A B} (l : list A) : forall (l' : list B),
  length l = length l' -> map fst (combine l l') = l.
Proof.
  induction l as [|x l IH]; intros [|y l'] L; cbn [length] in L; try discriminate L; [reflexivity|].
  cbn [combine map fst]. rewrite IH by congruence. reflexivity.
Qed.

Lemma bind_ctor_self (fs : list name) env g :
  (forall f, In f fs -> assoc_str f env = Some (g f)) ->
  bind_ctor (map (fun f => (f, f)) fs) env = Some (map (fun f => (f, g f)) fs).
Proof.
  induction fs as [|f fs IH]; intros H; [reflexivity|].
  cbn [map bind_ctor]. rewrite (H f (in_eq f fs)), IH by auto using in_cons. reflexivity.
Qed.

(* distinct parameters bound positionally are looked up as the arguments, in order *)
Lemma lookup_combine ps : forall (vs : list value) rest,
  nodup_str ps = true -> length ps = length vs ->
  map (fun p => match assoc_str p (combine ps vs ++ rest) with Some v => v | None => [] end) ps = vs.
Proof.
  induction ps as [|p ps IH]; intros [|v vs] rest ND L; cbn [length] in L; try discriminate L;
    [reflexivity|].
  cbn [nodup_str] in ND. apply andb_true_iff in ND as [N1 N2]. apply negb_true_iff in N1.
  cbn [combine app map assoc_str]. rewrite zlist_eqb_refl. f_equal.
  etransitivity; [|apply (IH vs rest N2); congruence].
  apply map_ext_in. intros q Hq.
  destruct (zlist_eqb_spec q p) as [->|_]; [|reflexivity].
  destruct (mem_str_false_In _ _ N1 Hq).
Qed.

(* hook_ok with its two positional comparisons read as equations *)
Lemma hook_ok_inv h :
  hook_ok h = true ->
  exists c, find_class (h_event h) = Some c /\ class_ok c = true
            /\ h_pos h = ec_payload c /\ h_ctor h = map (fun f => (f, f)) (ec_fields c)
            /\ nodup_str (h_pos h ++ h_kw h) = true
            /\ forallb (fun f => mem_str f (h_pos h ++ h_kw h)) (ec_fields c) = true.
Proof.
  unfold hook_ok. destruct (find_class (h_event h)) as [c|]; [|discriminate].
  rewrite !andb_true_iff. intros ((((((CO & Lp) & Ep) & Lc) & Ec) & ND) & Sub).
  apply Nat.eqb_eq in Lp, Lc. exists c. repeat split; try assumption.
  - rewrite <- (map_id (ec_payload c)).
    exact (combine_forallb_eq _ (fun p => p) (fun a b => proj1 (zlist_eqb_eq a b)) _ _ Lp Ep).
  - refine (combine_forallb_eq (fun k f => zlist_eqb (fst k) f && zlist_eqb (snd k) f) _ _ _ _ Lc Ec).
    intros [k a] f E. apply andb_true_iff in E as [E1 E2].
    apply zlist_eqb_eq in E1, E2. cbn [fst snd] in *. subst. reflexivity.
Qed.

(* hook_ok makes the event the method constructs hold the positional arguments as its payload and
   the keyword arguments as its other fields *)
Lemma call_slow_is_dispatch d h pos kw :
  hook_ok h = true -> good_call h pos kw = true ->
  exists ev, call_slow d h pos kw = HRes (dispatch (listeners_of d (h_event h)) ev)
             /\ wf_event ev = true /\ ev_int ev = false
             /\ find_class (h_event h) = Some (ev_cls ev) /\ class_ok (ev_cls ev) = true
             /\ payload_out ev = inl pos.
Proof.
  intros HO GC. destruct (hook_ok_inv h HO) as (c & FC & CO & Ep & Ector & ND & Sub).
  unfold good_call in GC. rewrite !andb_true_iff in GC. destruct GC as ((Lpos & Skw) & _).
  apply Nat.eqb_eq in Lpos.
  unfold call_slow, bind_args, mk_event.
  rewrite FC, Lpos, Ector, map_length, !Nat.eqb_refl, Skw. cbn [negb].
  set (env := combine (h_pos h) pos ++ kw).
  set (g := fun f => match assoc_str f env with Some v => v | None => [] end).
  (* every annotated field is a parameter, hence bound by the call *)
  assert (Henv : forall f, In f (ec_fields c) -> assoc_str f env = Some (g f)).
  { intros f Hf. rewrite forallb_forall in Sub. specialize (Sub f Hf).
    assert (B : is_some (assoc_str f env) = true).
    { unfold env. rewrite assoc_str_is_some, map_app, mem_str_app, map_fst_combine by congruence.
      rewrite mem_str_app in Sub. apply orb_true_iff in Sub as [->|Hk]; [reflexivity|].
      unfold same_names in Skw. apply andb_true_iff in Skw as [_ Skw].
      rewrite forallb_forall in Skw. apply orb_true_iff. right.
      exact (Skw f (proj1 (mem_str_In _ _) Hk)). }
    unfold g. destruct (assoc_str f env); [reflexivity|discriminate]. }
  replace (forallb _ (map _ (ec_fields c))) with true
    by (symmetry; apply forallb_forall; intros kv Hkv; apply in_map_iff in Hkv as [f [<- Hf]];
        apply mem_str_In; exact Hf).
  rewrite (bind_ctor_self _ env g Henv). cbn [negb].
  (* the event holds g f in every field f *)
  eexists. split; [reflexivity|]. cbn [ev_cls ev_int]. repeat split; [|exact CO|].
  - apply forallb_forall. intros f Hf. cbn [ev_vals].
    rewrite (assoc_str_map_self g f) by (apply mem_str_In; exact Hf). reflexivity.
  - unfold payload_out. cbn [ev_cls ev_vals]. rewrite (payload_vals_all _ _ g).
    + rewrite <- Ep. unfold g, env.
      rewrite (lookup_combine _ pos kw (nodup_str_app_l _ _ ND)) by congruence. reflexivity.
    + intros n Hn. apply assoc_str_map_self. exact (class_ok_payload c n CO Hn).
Qed.

(* with no listener the slow path returns the positional arguments, as the identity shadow does *)
Lemma call_slow_no_listeners d h pos kw :
  hook_ok h = true -> good_call h pos kw = true -> listeners_of d (h_event h) = [] ->
  call_slow d h pos kw = HRes {| d_log := []; d_errs := []; d_out := inl pos |}.
Proof.
  intros HO GC NL. destruct (call_slow_is_dispatch d h pos kw HO GC) as (ev & -> & _ & _ & _ & _ & PO).
  rewrite NL. cbn [dispatch]. rewrite PO. reflexivity.
Qed.

Section Reachable.
(* the dispatch objects reachable from a fresh one over hooks as _DispatchMeta accepts them *)
Variables (hs : list hook) (regs : list (name * listener)).
Hypotheses (D : hooks_distinct hs = true) (HO : forallb hook_ok hs = true).
Let d := register (new_dobj hs) regs.

Lemma reachable_inv : do_hooks d = hs /\ fast_inv d.
Proof. apply fast_inv_register; [exact D|reflexivity|]. intros h _ _. reflexivity. Qed.

Lemma hook_good h : In h hs -> hook_ok h = true.
Proof. apply forallb_forall, HO. Qed.

(* the fast path agrees with the slow path: where the shadow is still installed there is no
   listener *)
Lemma fast_path_agrees h pos kw :
  In h hs -> good_call h pos kw = true ->
  call_hook d (h_meth h) pos kw = call_slow d h pos kw.
Proof.
  intros HI GC. destruct reachable_inv as [Hd Inv].
  unfold call_hook. rewrite Hd, (find_hook_self hs h D HI).
  destruct (mem_str (h_meth h) (do_fast d)) eqn:F; [|reflexivity].
  symmetry. apply call_slow_no_listeners; [exact (hook_good h HI)|exact GC|].
  apply Inv; [rewrite Hd; exact HI|exact F].
Qed.

End Reachable.

(* the source as it is now (Gen.Facts / Gen.FactsC18, regenerated on every run) *)
Lemma interrupted_name_text : interrupted_name = s2z "__interrupted__".
Proof. reflexivity. Qed.

Lemma hooks_ok :
  forallb hook_ok hooks = true
  /\ hooks_distinct (side_hooks Client) = true /\ hooks_distinct (side_hooks Server) = true
  /\ forallb hook_ok (side_hooks Client) = true /\ forallb hook_ok (side_hooks Server) = true.
Proof. vm_compute. repeat split; reflexivity. Qed.

(* the dispatch objects of Channel (Client) and Server are over hooks as `Reachable` wants them *)
Lemma side_hooks_good s :
  hooks_distinct (side_hooks s) = true /\ forallb hook_ok (side_hooks s) = true.
Proof. destruct hooks_ok as [_ [D1 [D2 [O1 O2]]]]. destruct s; auto. Qed.

Definition payload_of_class (n : string) : option (list name) :=
  option_map ec_payload (find_class (s2z n)).
Definition readonly_of_class (n : string) : option (list name) :=
  option_map readonly (find_class (s2z n)).
