(* Lemmas for C09 (Props/C09.v states the theorems).  Model: Model/ServerLife.v.
   Every operation maps one function over the existing tasks (and Open appends a fresh one).  These
   functions are built from a few setters, task_cancel, collect_task and run_task: `tstep` lists how.
   What must hold of every such function (`sound`: it keeps the per-task invariant, it sets at most the
   pending-cancel flag or delivers what is pending, it keeps `tq`) is proved by one induction on `tstep`,
   and `step_tasks` is the one case analysis over the operations that the theorems about histories use. *)
From Coq Require Import List Bool Arith Lia.
From GV Require Import Gen.FactsC09 Model.ServerLife.
Import ListNotations.

Definition key (t : task) : nat * nat := (tc t, ti t).
Definition started_t (t : task) : bool := match ph t with Created _ => false | _ => true end.
(* CancelledErrors delivered or still to be delivered *)
Definition pend (t : task) : nat := ncancel t + (if cancel_req t then 1 else 0).

(* a handler that honours cancellation sees one CancelledError and finishes its cleanup, unless a
   cancel() call reached it inside the cleanup (ghost flag `late`) *)
Definition honour_inv (t : task) : Prop :=
  match tbeh t with
  | Swallow => True
  | Honour _ =>
      match ph t with
      | Created _ | Running _ _ => ncancel t = 0 /\ nhit t = 0 /\ late t = false
      | Cleanup _ => ncancel t = 1 /\ nhit t = 0 /\ (cancel_req t = true -> late t = true)
      | Finished => late t = false ->
                    nhit t = 0 /\ ncancel t <= 1 /\ (ncancel t = 1 -> cleanup_done t = true)
      end
  end.

(* the stream stays registered until the task's one release (the finally clause, or the done-callback
   of a task that never ran: cb_pending); a live task is in _tasks or _cancelled; a task popped from
   _tasks before its first step was cancelled by the reset that popped it *)
Record task_inv (t : task) : Prop := mkTI {
  ti_rel : nrel t = if registered t then 0 else 1;
  ti_reg : registered t = unfinished t || cb_pending t;
  ti_cb : unfinished t = true -> cb_pending t = false;
  ti_sets : unfinished t = true -> in_tasks t = true \/ in_cancelled t = true;
  ti_early : forall p, ph t = Created p -> in_tasks t = false -> cancel_req t = true;
  ti_honour : honour_inv t }.

(* a task missing from _tasks is accounted for: h2 has reset its stream (and Handler.cancel popped it),
   or it is done *)
Definition tq (t : task) : Prop := in_tasks t = true \/ h2reset t = true \/ unfinished t = false.
Definition tqfun (f : task -> task) : Prop := forall t, tq t -> tq (f t).

(* a task record is opened field by field, so that every setter computes *)
Ltac open_task t :=
  destruct t as [xc xi xb xtm xp xcr xib xcd xsl xwe xrg xit xic xhr xcb xnc xnh xlt xcdn xnr];
  unfold key, pend, started_t, honour_inv, unfinished, in_wrapper, is_cleanup in *; cbn in *.

(* closes the arithmetic and propositional goals an opened record leaves *)
Ltac fields :=
  try (intros; discriminate); try (intros; reflexivity); try assumption; try congruence;
  intuition (try congruence; try lia; try (subst; cbn in *; congruence)).

(* a run of the user code changes only what the awaits consume, then either leaves the user function
   or stops at an await *)
Lemma advance_shape p : forall t, exists a b c,
  advance p t = finish (set_wait t a b c) \/
  exists k r, advance p t = set_ph (set_wait t a b c) (Running k r).
Proof.
  induction p as [|k r IH]; intros t; cbn [advance].
  - exists (inbox t), (credit t), (slept t). left. destruct t; reflexivity.
  - destruct (can_pass k t).
    + destruct (IH (consume k t)) as (a & b & c & H). exists a, b, c.
      replace (set_wait t a b c) with (set_wait (consume k t) a b c) by (destruct k, t; reflexivity).
      exact H.
    + exists (inbox t), (credit t), (slept t). right. exists k, r. destruct t; reflexivity.
Qed.

Lemma unfinished_advance : forall p t,
  unfinished (advance p t) = true -> exists k r, ph (advance p t) = Running k r.
Proof.
  intros p t. destruct (advance_shape p t) as (a & b & c & [E|(k & r & E)]); rewrite E.
  - destruct t; discriminate.
  - exists k, r. destruct t; reflexivity.
Qed.

Lemma finish_fields t :
  let u := finish t in
  tc u = tc t /\ ti u = ti t /\ tbeh u = tbeh t /\ ph u = Finished /\ registered u = false /\
  nrel u = (if registered t then S (nrel t) else nrel t) /\ cb_pending u = cb_pending t /\
  cancel_req u = cancel_req t /\ in_tasks u = in_tasks t /\ in_cancelled u = in_cancelled t /\
  ncancel u = ncancel t /\ nhit u = nhit t /\ late u = late t /\ cleanup_done u = cleanup_done t.
Proof. destruct t; cbn. repeat split; reflexivity. Qed.

(* the branches of run_task, with `advance` resolved by advance_shape and the record opened *)
Ltac run_cases t :=
  unfold run_task;
  destruct (ph t) as [p|k r|n|] eqn:P;
  [ destruct (cancel_req t) eqn:CR
  | destruct (cancel_req t) eqn:CR; [destruct (tbeh t) as [[|m]|] eqn:B|]
  | destruct (cancel_req t) eqn:CR; [|destruct (slept t) eqn:SL; [destruct n as [|m]|]]
  | destruct (cb_pending t) eqn:CB ];
  try match goal with
      | |- context [advance ?q ?u] =>
          let E := fresh "E" in
          destruct (advance_shape q u) as (?a & ?b & ?c & [E|(?k' & ?r' & E)]); rewrite E; clear E
      end;
  open_task t; subst.

(* the setters that touch nothing the invariants read, or only raise a flag they want raised;
   st_join is Handler.close adding a task of _tasks to _cancelled *)
Inductive setter : (task -> task) -> Prop :=
| st_wait a b c : setter (fun t => set_wait t (a t) (b t) (c t))
| st_werr v : setter (fun t => set_werr t v)
| st_timer v : setter (fun t => set_timer t v)
| st_h2reset : setter (fun t => set_h2reset t true)
| st_join : setter (fun t => set_sets t true true).

(* The functions an operation applies to the existing tasks.  `tstep true`: what a cancellation cause
   does; `tstep false`: everything else.  Handler.cancel (ts_pop: the pop from _tasks) is only reached
   from process_stream_reset, after h2 has flagged the stream; without that it would not preserve tq. *)
Inductive tstep : bool -> (task -> task) -> Prop :=
| ts_id b : tstep b (fun t => t)
| ts_if b (c : task -> bool) f : tstep b f -> tstep b (fun t => if c t then f t else t)
| ts_comp b f g : tstep b f -> tstep b g -> tstep b (fun t => g (f t))
| ts_set b f : setter f -> tstep b f
| ts_collect : tstep false collect_task
| ts_run : tstep false run_task
| ts_cancel : tstep true task_cancel
| ts_pop f : tstep true f -> (forall t, h2reset (f t) = true) ->
             tstep true (fun t => let t1 := f t in
                                  if in_tasks t1 then task_cancel (set_sets t1 false true) else t1).

Lemma ts_terminated : tstep true terminated.
Proof.
  apply ts_if, (ts_comp _ (fun t => set_werr t true) task_cancel); [apply ts_set, st_werr | apply ts_cancel].
Qed.

Lemma ts_handler_close : tstep true handler_close_task.
Proof.
  apply ts_if, (ts_comp _ (fun t => set_sets t true true) task_cancel); [apply ts_set, st_join | apply ts_cancel].
Qed.

Lemma ts_close : tstep true close_task.
Proof.
  apply (ts_comp _ handler_close_task (fun t1 => if registered t1 then terminated t1 else t1)).
  - apply ts_handler_close.
  - apply ts_if, ts_terminated.
Qed.

Lemma ts_rst : tstep true rst_task.
Proof.
  apply (ts_pop (fun t => terminated (set_h2reset t true))).
  - apply (ts_comp _ (fun t => set_h2reset t true) terminated); [apply ts_set, st_h2reset | apply ts_terminated].
  - intros t. unfold terminated, task_cancel.
    destruct (in_wrapper _); [destruct (unfinished _)|]; destruct t; reflexivity.
Qed.

Lemma ts_deadline :
  tstep true (fun t => if timer t && in_wrapper t then task_cancel (set_werr (set_timer t false) true) else t).
Proof.
  apply (ts_if _ (fun t => timer t && in_wrapper t)),
        (ts_comp _ (fun t => set_werr (set_timer t false) true) task_cancel); [|apply ts_cancel].
  apply (ts_comp _ (fun t => set_timer t false) (fun t => set_werr t true)); apply ts_set; [apply st_timer | apply st_werr].
Qed.

(* what the state invariant needs of such a function *)
Record tfun_ok (f : task -> task) : Prop := mkTF {
  tf_key : forall t, key (f t) = key t;
  tf_unf : forall t, unfinished (f t) = true -> unfinished t = true;
  tf_canc : forall t, unfinished (f t) = true -> in_cancelled t = true -> in_cancelled (f t) = true;
  tf_inv : forall t, task_inv t -> task_inv (f t) }.

Lemma tfun_if (c : task -> bool) f : tfun_ok f -> tfun_ok (fun t => if c t then f t else t).
Proof. intros [a1 a2 a3 a4]. constructor; intros t; destruct (c t); auto. Qed.

Lemma tfun_comp f g : tfun_ok f -> tfun_ok g -> tfun_ok (fun t => g (f t)).
Proof.
  intros [a1 a2 a3 a4] [b1 b2 b3 b4]. constructor; intros t; auto.
  - rewrite b1. apply a1.
Qed.

(* a cancellation cause only sets the pending-cancel flag ... *)
Definition flagger (f : task -> task) : Prop :=
  forall t, ph (f t) = ph t /\ ncancel (f t) = ncancel t /\
            (cancel_req t = true -> cancel_req (f t) = true) /\
            (late (f t) = true -> late t = true \/ is_cleanup t = true).

(* ... and no other operation creates a delivery out of nothing *)
Definition quiet (f : task -> task) : Prop :=
  forall t, pend (f t) <= pend t /\
            (started_t t = true -> pend (f t) = pend t /\ started_t (f t) = true) /\
            (late (f t) = true -> late t = true).

Definition counts (b : bool) f := if b then flagger f else quiet f.

Lemma counts_if b (c : task -> bool) f : counts b f -> counts b (fun t => if c t then f t else t).
Proof. intros H. destruct b; intros t; destruct (c t); try apply H; fields. Qed.

Lemma counts_comp b f g : counts b f -> counts b g -> counts b (fun t => g (f t)).
Proof.
  destruct b; intros Hf Hg t.
  - destruct (Hf t) as (a1 & a2 & a3 & a4), (Hg (f t)) as (b1 & b2 & b3 & b4).
    unfold is_cleanup in *. rewrite a1 in b4. fields.
  - destruct (Hf t) as (a1 & a2 & a3), (Hg (f t)) as (b1 & b2 & b3). fields.
Qed.

Record sound (b : bool) (f : task -> task) : Prop := mkSound {
  snd_ok : tfun_ok f; snd_counts : counts b f; snd_tq : tqfun f }.

Lemma setter_sound b f : setter f -> sound b f.
Proof.
  intros S. constructor.
  - destruct S; (constructor; intros t; [ .. | intros [h1 h2 h3 h4 h5 h6]; constructor];
                  open_task t; fields).
  - destruct S, b; intros t; open_task t; fields.
  - destruct S; intros t Q; unfold tq in *; open_task t; fields.
Qed.

(* Task.cancel(): with the flag set, ti_early holds and so does the Cleanup clause of honour_inv, since
   `late` is raised together with the flag there (and nowhere else) *)
Lemma task_cancel_ok : tfun_ok task_cancel.
Proof.
  constructor; intros t; unfold task_cancel; (destruct (unfinished t) eqn:U; [|fields]);
    [open_task t; fields .. | ].
  intros [h1 h2 h3 h4 h5 h6]. constructor; open_task t; auto.
  destruct xb; auto. destruct xp; rewrite ?orb_false_r, ?orb_true_r; fields.
Qed.

Lemma flagger_task_cancel : flagger task_cancel.
Proof.
  intros t. unfold task_cancel. destruct (unfinished t); open_task t; rewrite ?orb_true_iff; fields.
Qed.

Lemma tq_set_werr v : tqfun (fun t => set_werr t v).
Proof. intros t H. exact H. Qed.

Lemma tq_task_cancel : tqfun task_cancel.
Proof. intros t. unfold task_cancel. destruct (unfinished t); auto. Qed.

(* Handler.cancel: pop from _tasks, cancel, add to _cancelled; the pop alone would break ti_early *)
Lemma pop_cancel_ok : tfun_ok (fun t => task_cancel (set_sets t false true)).
Proof.
  constructor; intros t; unfold task_cancel; destruct (unfinished (set_sets t false true)) eqn:U;
    [open_task t; fields .. | | ]; intros [h1 h2 h3 h4 h5 h6].
  - (* still running: cancelled *) constructor; open_task t; auto.
    destruct xb; auto. destruct xp; rewrite ?orb_false_r, ?orb_true_r; fields.
  - constructor; open_task t; fields.
Qed.

Lemma collect_task_ok : tfun_ok collect_task.
Proof.
  constructor; intros t; unfold collect_task; (destruct (unfinished t) eqn:U; [fields|]);
    [ .. | intros [h1 h2 h3 h4 h5 h6]; constructor]; open_task t; fields.
Qed.

(* the Finished clause of honour_inv asks nothing once `late` is set: a CancelledError delivered in the
   cleanup found the flag set there, so `late` was (Cleanup clause) *)
Lemma run_task_ok : tfun_ok run_task.
Proof.
  constructor; intros t.
  - run_cases t; reflexivity.
  - run_cases t; auto; discriminate.
  - run_cases t; auto; discriminate.
  - intros [h1 h2 h3 h4 h5 h6]. run_cases t; constructor; unfold honour_inv; cbn;
      try destruct xb; fields.
Qed.

Theorem tstep_sound b f : tstep b f -> sound b f.
Proof.
  induction 1 as [b | b c f _ [Of Cf Qf] | b f g _ [Of Cf Qf] _ [Og Cg Qg] | b f S | | | | f _ [Of Cf Qf] H2].
  - (* ts_id *) constructor; [constructor; auto | destruct b; intros t; fields | exact (fun t Q => Q)].
  - (* ts_if *) constructor; [apply tfun_if, Of | apply counts_if, Cf | intros t Q; destruct (c t); auto].
  - (* ts_comp *) constructor; [apply tfun_comp | apply counts_comp | intros t Q]; auto.
  - (* ts_set *) apply setter_sound, S.
  - (* ts_collect *) constructor; [apply collect_task_ok | |]; intros t; unfold collect_task.
    + destruct (unfinished t); open_task t; fields.
    + intros Q. destruct (unfinished t) eqn:U; auto. right; right. destruct t; exact U.
  - (* ts_run *) constructor; [apply run_task_ok | |]; intros t; unfold tq; run_cases t; fields.
  - (* ts_cancel *) exact (mkSound true _ task_cancel_ok flagger_task_cancel tq_task_cancel).
  - (* ts_pop *)
    set (g := fun t1 => if in_tasks t1 then task_cancel (set_sets t1 false true) else t1). constructor.
    + apply (tfun_comp f g Of), tfun_if, pop_cancel_ok.
    + apply (counts_comp true f g Cf), (counts_if true),
            (counts_comp true (fun t => set_sets t false true) task_cancel), flagger_task_cancel.
      intros t; open_task t; fields.
    + intros t Q. unfold g. destruct (in_tasks (f t)); [apply tq_task_cancel|]; right; left; [|apply H2].
      rewrite <- (H2 t). destruct (f t); reflexivity.
Qed.

Lemma tstep_ok b f : tstep b f -> tfun_ok f.
Proof. intros H. apply (tstep_sound b f H). Qed.

Lemma tstep_counts b f : tstep b f -> counts b f.
Proof. intros H. apply (tstep_sound b f H). Qed.

Definition keys (l : list task) := map key l.

Definition waiting (w : wstage) : bool :=
  match w with WLatch | WServer | WSub _ | WDone => true | _ => false end.
Definition drained (w : wstage) : bool := match w with WSub _ | WDone => true | _ => false end.

(* a connection that still processes events was not lost, its Handler is in Server._handlers, and
   (while the server listens) Handler.close was not called *)
Definition conn_ok (listen : bool) (k : conn) : Prop :=
  proc_open k = true -> lost k = false /\ in_handlers k = true /\ (listen = true -> closing k = false).

(* the Handler of an unfinished task is known to the server; once its connection is closed the task is
   in _cancelled *)
Definition home (cs : list conn) (j : nat) (t : task) : Prop :=
  exists k, nth_error cs j = Some k /\
            (unfinished t = true -> in_handlers k = true /\ (proc_open k = false -> in_cancelled t = true)).

(* what the waiter in its last two stages still needs of a task *)
Definition owed (w : wstage) (t : task) : Prop :=
  match w with
  | WSub snap => unfinished t = true -> In (key t) snap
  | WDone => unfinished t = false
  | _ => True
  end.

Record Inv (s : state) : Prop := mkInv {
  inv_tasks : Forall task_inv (tasks s);
  inv_nodup : NoDup (keys (tasks s));
  inv_conns : Forall (conn_ok (listening (srv s))) (conns s);
  inv_home : Forall (fun t => home (conns s) (tc t) t) (tasks s);
  inv_owed : Forall (owed (wst s)) (tasks s);
  inv_started : conns s <> [] \/ listening (srv s) = true \/ waiting (wst s) = true -> started (srv s) = true;
  inv_drained : drained (wst s) = true -> listening (srv s) = false /\ all_lost (conns s) = true }.

Lemma tf_tc f : tfun_ok f -> forall t, tc (f t) = tc t.
Proof. intros H t. exact (f_equal fst (tf_key f H t)). Qed.

Lemma keys_map f l : tfun_ok f -> keys (map f l) = keys l.
Proof. intros Hf. unfold keys. rewrite map_map. apply map_ext, Hf. Qed.

Lemma home_tfun f cs j t : tfun_ok f -> home cs j t -> home cs j (f t).
Proof.
  intros Hf (k & E & H). exists k. split; auto. intros U.
  destruct (H (tf_unf f Hf t U)) as [a b]. split; auto. intros O. apply (tf_canc f Hf); auto.
Qed.

Lemma owed_tfun f w t : tfun_ok f -> owed w t -> owed w (f t).
Proof.
  intros Hf. destruct w; cbn; auto.
  - intros H U. rewrite (tf_key f Hf). apply H, (tf_unf f Hf), U.
  - intros H. destruct (unfinished (f t)) eqn:U; auto. apply (tf_unf f Hf) in U. congruence.
Qed.

(* operations that only transform the existing tasks *)
Lemma inv_tstep s b f :
  Inv s -> tstep b f -> Inv (mkState (map f (tasks s)) (conns s) (srv s) (wst s)).
Proof.
  intros [i1 i2 i3 i4 i5 i6 i7] Hf%tstep_ok. constructor; cbn [tasks conns srv wst]; auto.
  - apply Forall_map. revert i1. apply Forall_impl, Hf.
  - rewrite keys_map; auto.
  - apply Forall_map. revert i4. apply Forall_impl. intros t. rewrite (tf_tc f Hf). apply home_tfun, Hf.
  - apply Forall_map. revert i5. apply Forall_impl. intros t. apply owed_tfun, Hf.
Qed.

Lemma same_state s : mkState (tasks s) (conns s) (srv s) (wst s) = s.
Proof. destruct s; reflexivity. Qed.

(* when the server was never started there is no connection and nobody waits *)
Lemma not_started s : Inv s -> started (srv s) = false -> conns s = [] /\ waiting (wst s) = false.
Proof.
  intros I S0. pose proof (inv_started s I) as H. split.
  - destruct (conns s); auto. rewrite H in S0; [discriminate | left; discriminate].
  - destruct (waiting (wst s)); auto. rewrite H in S0; auto.
Qed.

Lemma drained_waiting w : drained w = true -> waiting w = true.
Proof. destruct w; auto. Qed.

Lemma inv_start s : Inv s -> Inv (step s Start).
Proof.
  intros I. cbn [step]. destruct (started (srv s)) eqn:S0.
  - destruct I. constructor; auto.
  - destruct (not_started s I S0) as [C W]. destruct I. constructor; cbn [tasks conns srv wst listening started]; auto.
    + rewrite C. constructor.
    + intros D. apply drained_waiting in D. congruence.
Qed.

Lemma all_lost_map g cs : (forall k, lost (g k) = lost k) -> all_lost (map g cs) = all_lost cs.
Proof.
  intros Hg. unfold all_lost. induction cs as [|k r IH]; cbn; auto. rewrite Hg, IH. reflexivity.
Qed.

(* Server.close() once the tasks were cancelled: every Handler in _handlers is closing, no more accepts *)
Lemma inv_close_all l cs sv w :
  Inv (mkState l cs sv w) -> started sv = true ->
  Inv (mkState l (map (fun k => if in_handlers k
                                then mkConn (proc_open k) (lost k) true (in_handlers k) (gcn k) (crashed k)
                                else k) cs)
               (mkServer true false true (sgc sv) (serr sv)) w).
Proof.
  intros [i1 i2 i3 i4 i5 i6 i7] S0. cbn [tasks conns srv wst] in *.
  constructor; cbn [tasks conns srv wst listening started]; auto.
  - apply Forall_map. revert i3. apply Forall_impl. intros k H O.
    assert (O' : proc_open k = true) by (destruct (in_handlers k); exact O).
    destruct (H O') as (a & b & _). destruct (in_handlers k); cbn; repeat split; auto; discriminate.
  - revert i4. apply Forall_impl. intros t (k & E & H). unfold home. rewrite nth_error_map, E. cbn.
    eexists. split; [reflexivity|]. destruct (in_handlers k) eqn:Ek; cbn; rewrite ?Ek; auto.
  - intros D. split; auto. rewrite all_lost_map; [apply i7, D|]. intros k. destruct (in_handlers k); reflexivity.
Qed.

(* Server.close() calls Handler.close() for the handlers in _handlers: a conditional, as tstep wants it *)
Lemma srvclose_tasks s :
  map (fun t => match conn_at s (tc t) with
                | Some k => if in_handlers k then handler_close_task t else t
                | None => t end) (tasks s) =
  map (fun t => if match conn_at s (tc t) with Some k => in_handlers k | None => false end
                then handler_close_task t else t) (tasks s).
Proof. apply map_ext. intros t. destruct (conn_at s (tc t)); reflexivity. Qed.

Lemma inv_srvclose s : Inv s -> Inv (step s SrvClose).
Proof.
  intros I. cbn [step]. destruct (started (srv s)) eqn:S0.
  - apply inv_close_all; auto. rewrite srvclose_tasks.
    apply (inv_tstep s true), ts_if, ts_handler_close. exact I.
  - destruct I as [? ? ? ? ? i6 ?]. constructor; auto. cbn. rewrite <- S0. exact i6.
Qed.

Lemma inv_waitclosed s : Inv s -> Inv (step s WaitClosed).
Proof.
  intros I. cbn [step]. destruct (wst s) eqn:W; try exact I.
  destruct I as [i1 i2 i3 i4 i5 i6 i7]. constructor; cbn [tasks conns srv wst]; auto.
  - apply Forall_forall. destruct (started (srv s)); intros; exact I.
  - destruct (started (srv s)) eqn:S0; cbn; auto. intros [H|[H|H]]; auto; discriminate.
  - destruct (started (srv s)); discriminate.
Qed.

Lemma find_task_nodup l t :
  NoDup (keys l) -> In t l -> find_task (tc t) (ti t) l = Some t.
Proof.
  unfold find_task. induction l as [|x r IH]; intros ND Ht; [destruct Ht|].
  cbn in ND. inversion ND as [|? ? N1 N2]; subst. cbn [find].
  destruct Ht as [->|Ht].
  - unfold is_key. rewrite !Nat.eqb_refl. reflexivity.
  - destruct (is_key (tc t) (ti t) x) eqn:K; auto.
    exfalso. apply N1. unfold is_key in K. apply andb_true_iff in K. destruct K as [a b].
    apply Nat.eqb_eq in a, b. apply in_map_iff. exists t. split; auto. unfold key. congruence.
Qed.

Lemma inv_runw s : Inv s -> Inv (step s RunW).
Proof.
  intros I. cbn [step]. destruct (wst s) eqn:W; try exact I.
  - (* WLatch *)
    destruct (latch (srv s)); [|exact I].
    destruct I as [i1 i2 i3 i4 i5 i6 i7]. rewrite W in *. constructor; auto.
  - (* WServer: every unfinished task is in the snapshot *)
    destruct (negb (listening (srv s)) && all_lost (conns s)) eqn:C; [|exact I].
    apply andb_true_iff in C. destruct C as [C1 C2]. apply negb_true_iff in C1.
    destruct I as [i1 i2 i3 i4 i5 i6 i7]. rewrite W in *.
    constructor; cbn [tasks conns srv wst]; auto.
    rewrite Forall_forall in *. intros t Ht U. destruct (i4 t Ht) as (k & Ek & Hk). destruct (Hk U) as [h1 h2].
    apply (in_map (fun t => (tc t, ti t))), filter_In. split; auto.
    unfold conn_at. rewrite Ek, h1, andb_true_r. apply h2.
    apply nth_error_In in Ek. unfold all_lost in C2. rewrite forallb_forall in C2.
    destruct (proc_open k) eqn:O; auto.
    destruct (i3 k Ek O) as (a & _). rewrite (C2 k Ek) in a. discriminate.
  - (* WSub: every task of the snapshot is done *)
    destruct (forallb (task_done (tasks s)) snap) eqn:F; [|exact I].
    destruct I as [i1 i2 i3 i4 i5 i6 i7]. rewrite W in *.
    constructor; cbn [tasks conns srv wst]; auto.
    rewrite Forall_forall in *. intros t Ht. cbn. destruct (unfinished t) eqn:U; auto.
    rewrite forallb_forall in F. specialize (F _ (i5 t Ht U)).
    unfold task_done, key in F. cbn in F. rewrite (find_task_nodup _ _ i2 Ht), U in F. discriminate.
Qed.

Lemma nth_error_upd {A} (l : list A) n f m :
  nth_error (upd_nth l n f) m = if m =? n then option_map f (nth_error l m) else nth_error l m.
Proof.
  revert n m. induction l as [|x r IH]; intros n m; cbn.
  - destruct m; destruct (_ =? _); reflexivity.
  - destruct n, m; cbn; auto.
Qed.

Lemma Forall_upd_nth {A} (P : A -> Prop) l n f :
  Forall P l -> (forall x, P x -> P (f x)) -> Forall P (upd_nth l n f).
Proof.
  intros H Hf. revert n. induction H; intros n; cbn; [constructor|]. destruct n; constructor; auto.
Qed.

Lemma find_none_keys c i l : find_task c i l = None -> ~ In (c, i) (keys l).
Proof.
  unfold find_task, keys. induction l as [|x r IH]; cbn; intros H; [tauto|].
  destruct (is_key c i x) eqn:K; [discriminate|]. intros [E|E]; [|apply IH; auto].
  unfold key in E. inversion E; subst. unfold is_key in K. rewrite !Nat.eqb_refl in K. discriminate.
Qed.

Lemma new_task_inv c i p b dl : task_inv (new_task c i p b dl).
Proof. constructor; unfold honour_inv; cbn; auto; try discriminate. destruct b; auto. Qed.

(* a connection that still processes events keeps the waiter out of its last two stages *)
Lemma open_not_drained l cs sv w k :
  Inv (mkState l cs sv w) -> In k cs -> lost k = false -> drained w = false.
Proof.
  intros I Hk L. destruct (drained w) eqn:D; auto. destruct (inv_drained _ I D) as [_ A].
  unfold all_lost in A. rewrite forallb_forall in A. cbn in A. rewrite (A k Hk) in L. discriminate.
Qed.

Lemma inv_add_task l cs sv w c i p b dl k n :
  Inv (mkState l cs sv w) -> nth_error cs c = Some k -> proc_open k = true -> ~ In (c, i) (keys l) ->
  Inv (mkState (l ++ [new_task c i p b dl])
               (upd_nth cs c (fun k => mkConn (proc_open k) (lost k) (closing k) (in_handlers k) n (crashed k)))
               sv w).
Proof.
  intros I Ek PO F. pose proof (nth_error_In _ _ Ek) as Hin.
  destruct (proj1 (Forall_forall _ _) (inv_conns _ I) k Hin PO) as (Lk & Hk & _).
  pose proof (open_not_drained _ _ _ _ k I Hin Lk) as D.
  destruct I as [i1 i2 i3 i4 i5 i6 i7]. cbn [tasks conns srv wst] in *.
  constructor; cbn [tasks conns srv wst].
  - apply Forall_app. split; auto. constructor; [apply new_task_inv | constructor].
  - unfold keys. rewrite map_app. apply (NoDup_Add (Add_app _ _ [])). rewrite app_nil_r. auto.
  - apply Forall_upd_nth; auto.
  - apply Forall_app. split.
    + revert i4. apply Forall_impl. intros t (k0 & E0 & H0). unfold home. rewrite nth_error_upd, E0.
      destruct (tc t =? c); eexists; split; try reflexivity; auto.
    + constructor; [|constructor]. cbn. exists (mkConn (proc_open k) (lost k) (closing k) (in_handlers k) n (crashed k)).
      rewrite nth_error_upd, Nat.eqb_refl, Ek. split; auto. cbn. split; auto. congruence.
  - apply Forall_app. split; auto. constructor; [|constructor]. destruct w; try exact I; discriminate.
  - intros _. apply i6. left. intros ->. destruct c; discriminate.
  - congruence.
Qed.

Lemma inv_open s c i p b dl : Inv s -> Inv (step s (Open c i p b dl)).
Proof.
  intros I. cbn [step].
  destruct (conn_at s c) as [k|] eqn:Ek; [|exact I].
  destruct (find_task c i (tasks s)) eqn:F; [exact I|].
  destruct (proc_open k) eqn:PO; [|exact I].
  apply find_none_keys in F.
  destruct (S (gcn k) mod handler_gc_interval =? 0).
  - assert (T : tstep false (fun t => if tc t =? c then collect_task t else t))
      by apply (ts_if _ (fun t => tc t =? c)), ts_collect.
    apply inv_add_task with (k := k); auto.
    + apply (inv_tstep s false), T. exact I.
    + unfold on_conn_tasks. rewrite (keys_map _ _ (tstep_ok _ _ T)). exact F.
  - apply inv_add_task with (k := k); auto. rewrite same_state. exact I.
Qed.

(* a task still in _tasks is cancelled by Handler.close; one popped by a reset is either inside the
   wrapper, where __terminated__ cancels it, or never started and cancelled by that reset (ti_early) *)
Lemma close_task_cancels t :
  task_inv t -> unfinished (close_task t) = true ->
  cancel_req (close_task t) = true /\ in_cancelled (close_task t) = true.
Proof.
  intros [h1 h2 h3 h4 h5 h6]. unfold close_task, handler_close_task, terminated, task_cancel.
  open_task t. destruct xp, xit, xrg; cbn in *; try specialize (h5 _ eq_refl); fields.
Qed.

Lemma close_conn_cancels l c t' :
  Forall task_inv l -> In t' (on_conn_tasks c close_task l) -> tc t' = c -> unfinished t' = true ->
  cancel_req t' = true /\ in_cancelled t' = true.
Proof.
  intros Hl Ht' Tc U. apply in_map_iff in Ht'. destruct Ht' as (t & <- & Ht). destruct (tc t =? c) eqn:TC.
  - apply close_task_cancels; auto. apply (proj1 (Forall_forall _ _) Hl), Ht.
  - rewrite Tc, Nat.eqb_refl in TC. discriminate.
Qed.

Lemma inv_close_conn l cs sv w c k b :
  Inv (mkState l cs sv w) -> nth_error cs c = Some k -> lost k = false ->
  (forall t, In t l -> tc t = c -> unfinished t = true -> in_cancelled t = true) ->
  Inv (mkState l (upd_nth cs c (fun k => set_conn_flags k false (b || lost k) true)) sv w).
Proof.
  intros I Ek Lk C. pose proof (open_not_drained _ _ _ _ k I (nth_error_In _ _ Ek) Lk) as D.
  destruct I as [i1 i2 i3 i4 i5 i6 i7]. cbn [tasks conns srv wst] in *.
  constructor; cbn [tasks conns srv wst]; auto.
  - apply Forall_upd_nth; auto. intros x _ O. discriminate O.
  - rewrite Forall_forall in *. intros t Ht. destruct (i4 t Ht) as (k0 & E0 & H0).
    unfold home. rewrite nth_error_upd, E0. destruct (tc t =? c) eqn:TC; eexists; split; try reflexivity; auto.
    apply Nat.eqb_eq in TC. intros U. destruct (H0 U). split; auto.
  - intros _. apply i6. left. intros ->. destruct c; discriminate.
  - congruence.
Qed.

Lemma inv_processor_close s c b : Inv s -> Inv (processor_close s c b).
Proof.
  intros I. unfold processor_close. destruct (conn_at s c) as [k|] eqn:Ek; [|exact I].
  destruct (lost k) eqn:Lk; [exact I|].
  apply inv_close_conn with (k := k); auto.
  - apply (inv_tstep s true), (ts_if _ (fun t => tc t =? c)), ts_close. exact I.
  - intros t' Ht' Tc U. apply (close_conn_cancels _ _ _ (inv_tasks s I) Ht' Tc U).
Qed.

(* what the sweep may do to a connection: forget a closing Handler *)
Definition conn_gc (k k' : conn) : Prop :=
  proc_open k' = proc_open k /\ lost k' = lost k /\ closing k' = closing k /\
  (in_handlers k' = in_handlers k \/ in_handlers k' = false /\ closing k = true).

Lemma Forall2_nil_r {A B} (R : A -> B -> Prop) l l' : Forall2 R l l' -> l' <> [] -> l <> [].
Proof. intros H. inversion H; subst; congruence. Qed.

Lemma conn_gc_refl cs : Forall2 conn_gc cs cs.
Proof. induction cs; constructor; auto. unfold conn_gc. auto. Qed.

(* the sweep runs Handler.__gc_collect__ on some connections; it forgets a Handler only when
   check_closed() found no unfinished task of its connection in _tasks or _cancelled, and an unfinished
   task is always in one of the two (ti_sets) *)
Lemma server_gc_spec cs : forall l n, exists f,
  tstep false f /\ fst (server_gc l cs n) = map f l /\ Forall2 conn_gc cs (snd (server_gc l cs n)) /\
  (Forall task_inv l -> forall t j, In t l -> tc t = n + j -> home cs j t -> home (snd (server_gc l cs n)) j (f t)).
Proof.
  induction cs as [|k r IH]; intros l n; cbn [server_gc].
  - exists (fun t => t). repeat split; auto; [constructor | symmetry; apply map_id | constructor].
  - destruct (in_handlers k && closing k) eqn:C.
    + change (on_conn_tasks n collect_task l) with (map (fun t => if tc t =? n then collect_task t else t) l).
      set (c1 := fun t => if tc t =? n then collect_task t else t).
      assert (T1 : tstep false c1) by apply (ts_if _ (fun t => tc t =? n)), ts_collect.
      pose proof (tstep_ok _ _ T1) as Hc.
      destruct (IH (map c1 l) (S n)) as (f & Hf & E & F2 & H). pose proof (tstep_ok _ _ Hf) as Hf'.
      destruct (server_gc _ r (S n)) as [l2 r2]. cbn [fst snd] in *.
      exists (fun t => f (c1 t)).
      split; [apply ts_comp; assumption|]. split; [rewrite E; apply map_map|].
      apply andb_true_iff in C. destruct C as [C1 C2]. split.
      * constructor; auto. unfold conn_gc. destruct (handler_idle n _); cbn; auto 6.
      * intros Hl t j Ht Tc Hh.
        assert (Hl1 : Forall task_inv (map c1 l)) by (apply Forall_map; revert Hl; apply Forall_impl, Hc).
        destruct j as [|j].
        -- destruct (handler_idle n _) eqn:Idle; [|apply (home_tfun _ _ _ _ (tfun_comp _ _ Hc Hf')), Hh].
           destruct Hh as (k0 & E0 & _). eexists. split; [reflexivity|]. cbn. intros U. exfalso.
           apply (tf_unf f Hf') in U.
           unfold handler_idle in Idle. rewrite forallb_forall in Idle. specialize (Idle _ (in_map c1 _ _ Ht)).
           rewrite (tf_tc _ Hc), Tc, Nat.add_0_r, Nat.eqb_refl, U in Idle.
           destruct (ti_sets _ (proj1 (Forall_forall _ _) Hl1 _ (in_map c1 _ _ Ht)) U) as [X|X];
             rewrite X in Idle; cbn in Idle; rewrite ?orb_true_r in Idle; discriminate.
        -- apply (H Hl1 _ j (in_map c1 _ _ Ht)).
           ++ rewrite (tf_tc _ Hc), Tc. lia.
           ++ apply (home_tfun _ _ _ _ Hc). exact Hh.
    + destruct (IH l (S n)) as (f & Hf & E & F2 & H).
      destruct (server_gc l r (S n)) as [l2 r2]. cbn [fst snd] in *.
      exists f. repeat split; auto.
      * constructor; auto. unfold conn_gc. auto.
      * intros Hl t [|j] Ht Tc Hh; [apply (home_tfun _ _ _ _ (tstep_ok _ _ Hf)), Hh|].
        apply (H Hl t j Ht); auto. lia.
Qed.

Lemma inv_accept l cs cs' sv w n :
  Inv (mkState l cs sv w) -> listening sv = true ->
  Forall2 conn_gc cs cs' -> Forall (fun t => home cs' (tc t) t) l ->
  Inv (mkState l (cs' ++ [mkConn true false false true 0 false])
               (mkServer (started sv) true (latch sv) n (serr sv)) w).
Proof.
  intros [i1 i2 i3 i4 i5 i6 i7] L G Hh. cbn [tasks conns srv wst] in *. rewrite L in i3.
  constructor; cbn [tasks conns srv wst listening started]; auto.
  - apply Forall_app. split.
    + clear Hh i4 i6 i7. induction G as [|k k' r r' (g1 & g2 & g3 & g4)]; inversion i3; subst; constructor; auto.
      intros O. rewrite g1 in O. destruct (H1 O) as (a & b & c). rewrite g2, g3.
      destruct g4 as [g4|(_ & g4)]; [rewrite g4; auto | rewrite (c eq_refl) in g4; discriminate].
    + constructor; [|constructor]. intros _. cbn. auto.
  - revert Hh. apply Forall_impl. intros t (k & Ek & Hk). exists k. split; auto.
    rewrite nth_error_app1; auto. apply nth_error_Some. congruence.
  - intros D. destruct (i7 D). congruence.
Qed.

Lemma inv_connect s : Inv s -> Inv (step s Connect).
Proof.
  intros I. cbn [step]. destruct (listening (srv s)) eqn:L; [|exact I].
  destruct (S (sgc (srv s)) mod server_gc_interval =? 0).
  - destruct (server_gc_spec (conns s) (tasks s) 0) as (f & Hf & E & G & H).
    destruct (server_gc (tasks s) (conns s) 0) as [l' cs']. cbn [fst snd] in *. subst l'.
    apply inv_accept with (cs := conns s); auto.
    + apply (inv_tstep s false), Hf. exact I.
    + apply Forall_map. generalize (inv_home s I). rewrite !Forall_forall. intros Hh t Ht.
      rewrite (tf_tc f (tstep_ok _ _ Hf)). apply (H (inv_tasks s I) t (tc t)); auto.
  - apply inv_accept with (cs := conns s); auto; [rewrite same_state; exact I | apply conn_gc_refl | apply (inv_home s I)].
Qed.

(* the operations that touch nothing but the existing tasks *)
Definition tasks_only (o : op) : bool :=
  match o with Msg _ _ | Credit _ _ | Tick | Rst _ _ | Deadline _ _ | Run _ _ => true | _ => false end.

Lemma tasks_only_shape s o : tasks_only o = true ->
  exists f, tstep (is_cause o) f /\ step s o = mkState (map f (tasks s)) (conns s) (srv s) (wst s).
Proof.
  assert (SAME : forall b, exists f, tstep b f /\ s = mkState (map f (tasks s)) (conns s) (srv s) (wst s)).
  { intros b. exists (fun t => t). split; [constructor|]. rewrite map_id. symmetry. apply same_state. }
  destruct o; try discriminate; intros _; cbn [step is_cause].
  - destruct (conn_open s c); [|apply SAME]. eexists. split; [|reflexivity].
    apply ts_if, ts_if, ts_set, (st_wait (fun t => S (inbox t)) credit slept).
  - destruct (conn_open s c); [|apply SAME]. eexists. split; [|reflexivity].
    apply ts_if, ts_if, ts_set, (st_wait inbox (fun t => S (credit t)) slept).
  - rewrite (map_ext _ (fun t => if match ph t with Running AS _ | Cleanup _ => true | _ => false end
                                 then set_wait t (inbox t) (credit t) true else t)).
    + eexists. split; [|reflexivity]. apply ts_if, ts_set, (st_wait inbox credit (fun _ => true)).
    + intros t. destruct (ph t) as [|[] ?| |]; reflexivity.
  - destruct (conn_open s c); [|apply SAME].
    destruct (find_task c i (tasks s)) as [t|]; [|apply SAME].
    destruct (registered t && negb (h2reset t)); [|apply SAME]. eexists. split; [|reflexivity]. apply ts_if, ts_rst.
  - eexists. split; [|reflexivity]. apply ts_if, ts_deadline.
  - eexists. split; [|reflexivity]. apply ts_if, ts_run.
Qed.

Theorem step_inv s o : Inv s -> Inv (step s o).
Proof.
  intros I. destruct (tasks_only o) eqn:T.
  - destruct (tasks_only_shape s o T) as (f & Hf & ->). exact (inv_tstep s _ f I Hf).
  - destruct o; try discriminate.
    + apply inv_start, I.
    + apply inv_connect, I.
    + apply inv_open, I.
    + cbn [step]. destruct (conn_open s c); [|exact I]. apply inv_processor_close, I.
    + apply inv_processor_close, I.
    + apply inv_srvclose, I.
    + apply inv_waitclosed, I.
    + apply inv_runw, I.
Qed.

Lemma run_ops_ind (P : state -> Prop) :
  (forall s o, P s -> P (step s o)) -> forall ops s, P s -> P (run_ops ops s).
Proof. intros H. unfold run_ops. induction ops as [|o r IH]; intros s Ps; cbn; auto. Qed.

Lemma inv_init : Inv init.
Proof. constructor; cbn; try constructor; try discriminate. intros [H|[H|H]]; congruence. Qed.

Corollary reachable_inv ops : Inv (run_ops ops init).
Proof. apply (run_ops_ind Inv step_inv), inv_init. Qed.

Lemma reachable_task_inv ops t : In t (tasks (run_ops ops init)) -> task_inv t.
Proof. apply Forall_forall, inv_tasks, reachable_inv. Qed.

Lemma reachable_home ops t :
  In t (tasks (run_ops ops init)) -> home (conns (run_ops ops init)) (tc t) t.
Proof. exact (proj1 (Forall_forall _ _) (inv_home _ (reachable_inv ops)) t). Qed.

(* what an operation does to the task list: every existing task is transformed by one function, and
   possibly one fresh task is appended *)
Definition evolves (b : bool) (l l' : list task) : Prop :=
  exists f extra, l' = map f l ++ extra /\ tstep b f /\
                  (extra = [] \/ exists c i p b dl, extra = [new_task c i p b dl]).

Lemma evolves_map b f l : tstep b f -> evolves b l (map f l).
Proof. intros Hf. exists f, []. rewrite app_nil_r. auto. Qed.

Lemma evolves_refl b l : evolves b l l.
Proof. rewrite <- (map_id l) at 2. apply evolves_map, ts_id. Qed.

Lemma processor_close_tasks s c b : evolves true (tasks s) (tasks (processor_close s c b)).
Proof.
  unfold processor_close. destruct (conn_at s c) as [k|]; [|apply evolves_refl].
  destruct (lost k); [apply evolves_refl|]. apply evolves_map, (ts_if _ (fun t => tc t =? c)), ts_close.
Qed.

Lemma step_tasks s o : evolves (is_cause o) (tasks s) (tasks (step s o)).
Proof.
  destruct (tasks_only o) eqn:T.
  { destruct (tasks_only_shape s o T) as (f & Hf & ->). apply evolves_map, Hf. }
  destruct o; try discriminate; cbn [step is_cause].
  - (* Start *) destruct (started (srv s)); apply evolves_refl.
  - (* Connect *)
    destruct (listening (srv s)); [|apply evolves_refl].
    destruct (S (sgc (srv s)) mod server_gc_interval =? 0); [|apply evolves_refl].
    destruct (server_gc_spec (conns s) (tasks s) 0) as (f & Hf & E & _).
    destruct (server_gc (tasks s) (conns s) 0) as [l cs]. cbn [tasks fst] in *. rewrite E. apply evolves_map, Hf.
  - (* Open *)
    destruct (conn_at s c) as [k|]; [|apply evolves_refl].
    destruct (find_task c i (tasks s)); [apply evolves_refl|].
    destruct (proc_open k); [|apply evolves_refl]. cbn [tasks].
    exists (fun t => if S (gcn k) mod handler_gc_interval =? 0
                     then (if tc t =? c then collect_task t else t) else t), [new_task c i p b dl].
    split; [|split; [|eauto 7]].
    + destruct (_ =? 0); [reflexivity | rewrite map_id; reflexivity].
    + destruct (_ =? 0); [apply (ts_if _ (fun t => tc t =? c)), ts_collect | constructor].
  - (* Goaway *) destruct (conn_open s c); [apply processor_close_tasks | apply evolves_refl].
  - (* Lost *) apply processor_close_tasks.
  - (* SrvClose *) destruct (started (srv s)); [|apply evolves_refl]. cbn [tasks].
    rewrite srvclose_tasks. apply evolves_map, ts_if, ts_handler_close.
  - (* WaitClosed *) destruct (wst s); apply evolves_refl.
  - (* RunW *)
    destruct (wst s); try apply evolves_refl.
    + destruct (latch (srv s)); apply evolves_refl.
    + destruct (negb (listening (srv s)) && all_lost (conns s)); apply evolves_refl.
    + destruct (forallb (task_done (tasks s)) snap); apply evolves_refl.
Qed.

Lemma step_Forall (P Q : task -> Prop) s o :
  (forall f, tstep (is_cause o) f -> forall t, P t -> Q (f t)) ->
  (forall c i p b dl, Q (new_task c i p b dl)) ->
  Forall P (tasks s) -> Forall Q (tasks (step s o)).
Proof.
  intros Hf Hn H. destruct (step_tasks s o) as (f & extra & -> & Tf & X).
  apply Forall_app. split.
  - apply Forall_map. revert H. apply Forall_impl, Hf, Tf.
  - destruct X as [->|(c & i & p & b & dl & ->)]; repeat constructor. apply Hn.
Qed.

Lemma step_In s o t :
  In t (tasks s) -> exists f, tstep (is_cause o) f /\ In (f t) (tasks (step s o)).
Proof.
  intros H. destruct (step_tasks s o) as (f & extra & -> & Tf & _).
  exists f. split; auto. apply in_or_app. left. apply in_map, H.
Qed.

Fixpoint count_causes (ops : list op) : nat :=
  match ops with [] => 0 | o :: r => (if is_cause o then 1 else 0) + count_causes r end.

(* (a) every CancelledError a handler sees is accounted for by a distinct cause *)
Lemma deliveries_le_causes_gen ops : forall s n,
  Forall (fun t => pend t <= n) (tasks s) ->
  Forall (fun t => pend t <= n + count_causes ops) (tasks (run_ops ops s)).
Proof.
  induction ops as [|o r IH]; intros s n H; cbn [run_ops fold_left count_causes].
  - rewrite Nat.add_0_r. exact H.
  - rewrite Nat.add_assoc. apply IH. revert H. apply step_Forall.
    + intros f Hf t Ht. apply tstep_counts in Hf. destruct (is_cause o).
      * destruct (Hf t) as (_ & a & b & _). unfold pend in *. rewrite a.
        destruct (cancel_req t); [rewrite (b eq_refl)|destruct (cancel_req (f t))]; lia.
      * destruct (Hf t) as (a & _). lia.
    + intros. cbn. lia.
Qed.

Corollary pend_le_causes ops t : In t (tasks (run_ops ops init)) -> pend t <= count_causes ops.
Proof. apply (proj1 (Forall_forall _ _) (deliveries_le_causes_gen ops init 0 (Forall_nil _))). Qed.

(* (b) a started task followed through operations that are not causes keeps its count exactly *)
Lemma benign_keeps_pend ops : forall s t,
  forallb (fun o => negb (is_cause o)) ops = true ->
  In t (tasks s) -> started_t t = true ->
  exists t', In t' (tasks (run_ops ops s)) /\ key t' = key t /\ pend t' = pend t /\ started_t t' = true.
Proof.
  induction ops as [|o r IH]; intros s t B Ht St; cbn [run_ops fold_left forallb] in *.
  - exists t. auto.
  - apply andb_true_iff in B. destruct B as [B1 B2]. apply negb_true_iff in B1.
    destruct (step_In s o t Ht) as (f & Hf & Hin). rewrite B1 in Hf.
    destruct (tstep_counts _ _ Hf t) as (_ & a & _). destruct (a St) as [a1 a2].
    destruct (IH (step s o) (f t) B2 Hin a2) as (t' & h1 & h2 & h3 & h4).
    exists t'. rewrite h2, h3, (tf_key f (tstep_ok _ _ Hf)). auto.
Qed.

(* a cause sets the flag at most; together: exactly one CancelledError per cause that reaches a
   running task, delivered when the task next runs *)
Theorem single_cause_one_delivery s o ops t :
  is_cause o = true -> forallb (fun o => negb (is_cause o)) ops = true ->
  In t (tasks s) -> started_t t = true -> cancel_req t = false ->
  exists t1 t', In t1 (tasks (step s o)) /\ key t1 = key t /\ ncancel t1 = ncancel t /\
                In t' (tasks (run_ops ops (step s o))) /\ key t' = key t /\
                ncancel t' + (if cancel_req t' then 1 else 0)
                = ncancel t + (if cancel_req t1 then 1 else 0).
Proof.
  intros C B Ht St CR.
  destruct (step_In s o t Ht) as (f & Hf & H1). rewrite C in Hf.
  destruct (tstep_counts _ _ Hf t) as (a1 & a2 & _). pose proof (tf_key f (tstep_ok _ _ Hf) t) as K.
  assert (S1 : started_t (f t) = true) by (unfold started_t in *; rewrite a1; exact St).
  destruct (benign_keeps_pend ops (step s o) (f t) B H1 S1) as (t' & h1 & h2 & h3 & _).
  exists (f t), t'. repeat split; auto; try congruence.
  unfold pend in h3. rewrite h3, a2. reflexivity.
Qed.

(* the ghost flag at the level of traces: it can only be raised by a cause that arrives while the
   task is in its cleanup *)
Fixpoint calm (ops : list op) (s : state) : Prop :=
  match ops with
  | [] => True
  | o :: r => (is_cause o = true -> forall t, In t (tasks s) -> is_cleanup t = false) /\ calm r (step s o)
  end.

Lemma calm_no_late ops : forall s,
  calm ops s -> Forall (fun t => late t = false) (tasks s) ->
  Forall (fun t => late t = false) (tasks (run_ops ops s)).
Proof.
  induction ops as [|o r IH]; intros s C H; cbn [run_ops fold_left calm] in *; auto.
  destruct C as [C1 C2]. apply IH; auto. rewrite Forall_forall in H.
  apply (step_Forall (fun t => In t (tasks s))); [| reflexivity | apply Forall_forall; auto].
  intros f Hf t Ht. apply tstep_counts in Hf. destruct (late (f t)) eqn:L; auto.
  destruct (is_cause o).
  - destruct (Hf t) as (_ & _ & _ & a). destruct (a L) as [X|X]; [rewrite H in X | rewrite C1 in X]; auto; discriminate.
  - destruct (Hf t) as (_ & _ & a). rewrite (H t Ht) in a. discriminate (a L).
Qed.

(* D20: Server.close(), the handler starts its cleanup, the connection drops *)
Definition d20_ops : list op :=
  [Start; Connect; Open 0 0 [AS] (Honour 2) false; Run 0 0; SrvClose; Run 0 0; Lost 0; Run 0 0].

Theorem cancelled_once_refuted :
  exists ops t c, In t (tasks (run_ops ops init)) /\ tbeh t = Honour c /\
                  ncancel t = 2 /\ nhit t = 1 /\ ph t = Finished /\ cleanup_done t = false.
Proof.
  exists d20_ops. eexists. exists 2. vm_compute. split; [left; reflexivity|]. repeat split; reflexivity.
Qed.

Lemma find_on_task c i f l :
  (forall t, key (f t) = key t) ->
  find_task c i (on_task c i f l) = option_map f (find_task c i l).
Proof.
  intros Hf. unfold find_task, on_task. induction l as [|x r IH]; cbn; auto.
  destruct (is_key c i x) eqn:K; [|rewrite K; exact IH].
  replace (is_key c i (f x)) with true; auto.
  specialize (Hf x). unfold is_key, key in *. inversion Hf. congruence.
Qed.

(* a finished handler task has released its stream after (at most) one more callback of the loop,
   including the task that was cancelled before it ever ran *)
Theorem finished_is_released ops c i t :
  find_task c i (tasks (run_ops ops init)) = Some t -> unfinished t = false ->
  exists t', find_task c i (tasks (step (run_ops ops init) (Run c i))) = Some t' /\
             registered t' = false /\ nrel t' = 1 /\ cb_pending t' = false.
Proof.
  intros F U. cbn [step tasks]. rewrite (find_on_task _ _ _ _ (tf_key _ run_task_ok)), F.
  eexists. split; [reflexivity|]. apply find_some in F.
  destruct (reachable_task_inv ops t (proj1 F)) as [h1 h2 _ _ _ _]. run_cases t; fields.
Qed.

Example never_ran_is_released :
  let s := run_ops [Start; Connect; Open 0 0 [AR; AS] (Honour 1) false; Rst 0 0; Run 0 0; Run 0 0] init in
  exists t, find_task 0 0 (tasks s) = Some t /\ ph t = Finished /\ ncancel t = 0 /\
            registered t = false /\ nrel t = 1.
Proof. vm_compute. eexists. repeat split; reflexivity. Qed.

Definition wait_started (w : wstage) : bool :=
  match w with WLatch | WServer | WSub _ => true | _ => false end.

Lemma all_done_snapshot l snap :
  (forall t, In t l -> unfinished t = false) -> forallb (task_done l) snap = true.
Proof.
  intros H. apply forallb_forall. intros k _. unfold task_done, find_task.
  destruct (find (is_key (fst k) (snd k)) l) eqn:F; auto.
  apply find_some in F. destruct F as [F _]. rewrite (H _ F). reflexivity.
Qed.

(* the three stages of Server.wait_closed *)
Lemma runw_latch l cs sv : latch sv = true ->
  step (mkState l cs sv WLatch) RunW = mkState l cs sv WServer.
Proof. intros L. cbn [step wst srv]. rewrite L. reflexivity. Qed.

Lemma runw_server l cs sv : listening sv = false -> all_lost cs = true ->
  step (mkState l cs sv WServer) RunW = mkState l cs sv (WSub (snapshot (mkState l cs sv WServer))).
Proof. intros L A. cbn [step wst srv conns]. rewrite L, A. reflexivity. Qed.

Lemma runw_sub l cs sv snap : forallb (task_done l) snap = true ->
  step (mkState l cs sv (WSub snap)) RunW = mkState l cs sv WDone.
Proof. intros D. cbn [step wst tasks]. rewrite D. reflexivity. Qed.

(* once Server.close() was called, every connection is gone (the Python 3.12 condition of
   asyncio.Server.wait_closed) and every handler task is done, three stages of the waiter finish it *)
Theorem wait_closed_live s :
  wait_started (wst s) = true ->
  latch (srv s) = true -> listening (srv s) = false -> all_lost (conns s) = true ->
  (forall t, In t (tasks s) -> unfinished t = false) ->
  wst (run_ops [RunW; RunW; RunW] s) = WDone.
Proof.
  destruct s as [l cs sv w]. cbn [wst srv conns tasks]. intros W La Li Al Fin.
  pose proof (fun snap => all_done_snapshot l snap Fin) as D.
  unfold run_ops. cbn [fold_left].
  destruct w; try discriminate; rewrite ?runw_latch, ?runw_server, runw_sub; auto.
Qed.

(* D10 in the model: with the Python 3.12 semantics an open connection -- even an idle one -- keeps
   wait_closed() from ever returning, no matter how often the waiter is scheduled *)
Lemma runw_stuck s : wst s = WServer -> all_lost (conns s) = false -> step s RunW = s.
Proof. intros W A. cbn [step]. rewrite W, A, andb_false_r. reflexivity. Qed.

Theorem wait_closed_blocked_by_open_connection s n :
  wst s = WServer -> all_lost (conns s) = false -> wst (run_ops (repeat RunW n) s) = WServer.
Proof.
  intros W A. induction n as [|n IH]; [exact W|].
  unfold run_ops in *. cbn [repeat fold_left]. rewrite (runw_stuck s W A). exact IH.
Qed.

Definition d10_ops : list op :=
  [Start; Connect; Connect; Open 0 0 [AS] (Honour 1) false; Run 0 0; SrvClose; WaitClosed;
   Run 0 0; Tick; Run 0 0; Lost 0; RunW; RunW; RunW].

Theorem wait_closed_returns_refuted :
  exists ops, let s := run_ops ops init in
    latch (srv s) = true /\ (forall t, In t (tasks s) -> ph t = Finished) /\
    forall n, wst (run_ops (repeat RunW n) s) <> WDone.
Proof.
  exists d10_ops. cbv zeta. split; [vm_compute; reflexivity|]. split.
  - vm_compute. intros t [<-|[]]. reflexivity.
  - intros n. rewrite wait_closed_blocked_by_open_connection; [discriminate| |]; vm_compute; reflexivity.
Qed.

Lemma tq_reachable ops : forall t, In t (tasks (run_ops ops init)) -> tq t.
Proof.
  apply Forall_forall. apply (run_ops_ind (fun s => Forall tq (tasks s))); [|constructor].
  intros s o. apply step_Forall; [intros f Hf; apply (tstep_sound _ _ Hf) | left; reflexivity].
Qed.

(* RST_STREAM on stream (c,i): no other task, no connection, nothing of the server, nothing of the waiter
   changes -- in every state; in particular nothing is raised (Handler.cancel pops with a default) *)
Theorem rst_isolated s c i :
  exists g, tasks (step s (Rst c i)) = map g (tasks s) /\
            (forall t, is_key c i t = false -> g t = t) /\
            conns (step s (Rst c i)) = conns s /\
            srv (step s (Rst c i)) = srv s /\ wst (step s (Rst c i)) = wst s.
Proof.
  cbn [step]. destruct (conn_open s c);
    [destruct (find_task c i (tasks s)) as [t|]; [destruct (registered t && negb (h2reset t))|]|].
  1: (* the reset is applied *) exists (fun t0 => if is_key c i t0 then rst_task t0 else t0); repeat split; auto;
     intros t0 K; rewrite K; reflexivity.
  all: (* it is ignored *) exists (fun t => t); rewrite map_id; repeat split; auto.
Qed.

(* the first reset of a stream whose handler is in flight (any phase before Finished) cancels exactly
   that task: pending CancelledError, moved from _tasks to _cancelled, nothing delivered yet *)
Theorem rst_cancels_target ops c i t :
  let s := run_ops ops init in
  find_task c i (tasks s) = Some t -> unfinished t = true ->
  conn_open s c = true -> h2reset t = false ->
  exists t', find_task c i (tasks (step s (Rst c i))) = Some t' /\
             cancel_req t' = true /\ in_tasks t' = false /\ in_cancelled t' = true /\
             ncancel t' = ncancel t /\ ph t' = ph t.
Proof.
  intros s F U CO H2. pose proof (find_some _ _ F) as [Ht _].
  pose proof (tq_reachable ops t Ht) as Q. unfold tq in Q. destruct (reachable_task_inv ops t Ht) as [_ h2 _ _ _ _].
  cbn [step]. rewrite CO. fold s. rewrite F.
  replace (registered t && negb (h2reset t)) with true by (rewrite h2, U, H2; reflexivity).
  cbn [tasks]. rewrite (find_on_task _ _ _ _ (tf_key _ (tstep_ok _ _ ts_rst))), F.
  eexists. split; [reflexivity|]. unfold rst_task, terminated, task_cancel.
  open_task t. destruct xp; cbn in *; fields.
Qed.

(* the window of the repaired defect D91: Server.close() cancelled a task that never ran, the task is
   done but its done-callback has not released the stream yet, the 10th accept collected it *)
Definition gc_window_ops : list op :=
  [Start; Connect] ++ map (fun i => Open 0 i [AS] (Honour 1) false) (seq 0 9) ++
  [SrvClose; Run 0 8; Open 0 9 [AS] (Honour 1) false; Rst 0 8; Run 0 8].

(* connection_lost / GOAWAY: every unfinished handler task of the connection is cancelled *)
Theorem close_cancels_all ops c b t' :
  let s := run_ops ops init in
  (exists k, conn_at s c = Some k /\ lost k = false) ->
  In t' (tasks (processor_close s c b)) -> tc t' = c -> unfinished t' = true -> cancel_req t' = true.
Proof.
  intros s (k & Ek & Lk) Ht' Tc U. unfold processor_close in Ht'. rewrite Ek, Lk in Ht'.
  apply (close_conn_cancels (tasks s) c); auto. apply inv_tasks, reachable_inv.
Qed.

(* Server.close(): every unfinished task that is still a value of some handler's _tasks is cancelled
   and joins _cancelled (so that wait_closed() waits for it) *)
Theorem srvclose_cancels ops t :
  let s := run_ops ops init in
  started (srv s) = true -> In t (tasks s) -> unfinished t = true -> in_tasks t = true ->
  exists t', In t' (tasks (step s SrvClose)) /\ key t' = key t /\
             cancel_req t' = true /\ in_cancelled t' = true /\ ncancel t' = ncancel t.
Proof.
  intros s St Ht U IT. subst s. cbn [step]. rewrite St. cbn [tasks].
  destruct (reachable_home ops t Ht) as (k & Ek & Hk).
  destruct (Hk U) as [IH _]. exists (handler_close_task t). split.
  - apply in_map_iff. exists t. split; auto. unfold conn_at. rewrite Ek, IH. reflexivity.
  - unfold handler_close_task, task_cancel. rewrite IT. open_task t. rewrite U. cbn. auto.
Qed.

(* which second cause lands in the cleanup (Props: C09_pair_table), and why the others do not *)
Definition pair_expected (a b : cause) : bool :=
  match a, b with
  | CRst, CRst            (* h2 emits one StreamReset per stream *)
  | CRst, CSrvClose       (* Handler.cancel popped the task from _tasks: Handler.close() skips it *)
  | CDeadline, CDeadline  (* one-shot timer *)
  | CGoaway, CRst | CGoaway, CGoaway     (* no event is processed after EventsProcessor.close *)
  | CLost, CRst | CLost, CGoaway | CLost, CLost => false
  | _, _ => true
  end.

Definition gclose (g : gserver) : gserver := mkG (g_started g) (S (g_closes g)).

Lemma first_stage_spec l :
  first_stage l = (map (fun g => if g_started g then gclose g else g) l, negb (forallb g_started l)).
Proof.
  induction l as [|g r IH]; cbn; [reflexivity|]. rewrite IH. unfold gclose.
  destruct (g_started g) eqn:S0; cbn; rewrite ?S0; reflexivity.
Qed.

(* first signal, every server started: each server is closed once, nothing is raised, the flag is set *)
Theorem graceful_first_signal l sig ex :
  forallb g_started l = true ->
  exit_handler sig (mkGS l false ex) = mkGS (map gclose l) true ex.
Proof.
  intros H. unfold exit_handler. cbn. rewrite first_stage_spec, H. cbn. f_equal.
  apply map_ext_in. intros g Hg. rewrite forallb_forall in H. rewrite (H g Hg). reflexivity.
Qed.

(* any later signal: SystemExit(128 + sig), no server is closed again *)
Theorem graceful_second_signal l sig ex :
  exit_handler sig (mkGS l true ex) = mkGS l true ((128 + sig) :: ex).
Proof. reflexivity. Qed.

(* whole signal sequences, every server started: closed exactly once, one SystemExit per later signal *)
Theorem graceful_sequence l sig sigs :
  forallb g_started l = true ->
  fold_left (fun st sg => exit_handler sg st) (sig :: sigs) (mkGS l false []) =
  mkGS (map gclose l) true (rev (map (fun sg => 128 + sg) sigs)).
Proof.
  intros H. cbn [fold_left]. rewrite (graceful_first_signal l sig [] H).
  assert (G : forall sigs ex, fold_left (fun st sg => exit_handler sg st) sigs (mkGS (map gclose l) true ex)
                              = mkGS (map gclose l) true (rev (map (fun sg => 128 + sg) sigs) ++ ex)).
  { induction sigs0 as [|a r IH]; intros ex; cbn [fold_left map rev]; auto.
    rewrite graceful_second_signal, IH, <- app_assoc. reflexivity. }
  rewrite G, app_nil_r. reflexivity.
Qed.

Lemma wmem_add t u l : wmem t (wadd u l) = (t =? u) || wmem t l.
Proof.
  unfold wadd. destruct (wmem u l) eqn:M.
  - destruct (t =? u) eqn:E; auto. apply Nat.eqb_eq in E. subst. exact M.
  - unfold wmem. rewrite existsb_app. cbn. rewrite orb_false_r. apply orb_comm.
Qed.

Lemma wmem_discard t u l : wmem t (wdiscard u l) = negb (t =? u) && wmem t l.
Proof.
  unfold wmem, wdiscard. induction l as [|x r IH]; cbn; [symmetry; apply andb_false_r|].
  destruct (x =? u) eqn:E; cbn; rewrite IH; destruct (t =? x) eqn:F; cbn; auto;
    apply Nat.eqb_eq in F; subst x; rewrite E; reflexivity.
Qed.

(* one operation keeps (sticky error, "t is a member") in step with the specification for t *)
Lemma wstep_spec t w o :
  (werror (wstep w o), wmem t (wtasks (wstep w o))) = wspec_step t (werror w, wmem t (wtasks w)) o.
Proof.
  destruct o as [u|u|]; cbn [wstep wspec_step werror wtasks].
  - rewrite (Nat.eqb_sym u t). destruct (werror w); cbn [werror wtasks]; [|rewrite wmem_add];
      destruct (t =? u); cbn [negb orb]; rewrite ?orb_false_r, ?orb_true_r; reflexivity.
  - rewrite wmem_discard, (Nat.eqb_sym u t). destruct (t =? u); reflexivity.
  - reflexivity.
Qed.

Lemma wrun_spec t ops : forall w,
  fold_left (wspec_step t) ops (werror w, wmem t (wtasks w)) =
  (werror (fold_left wstep ops w), wmem t (wtasks (fold_left wstep ops w))).
Proof. induction ops as [|o r IH]; intros w; cbn [fold_left]; [reflexivity|]. rewrite <- wstep_spec. apply IH. Qed.
