(* zlist_eqb decides equality of strings, and mem_str membership in a list of them. *)
From Coq Require Import ZArith List Bool.
From GV Require Import Lib.Str.

Lemma zlist_eqb_eq a b : zlist_eqb a b = true <-> a = b.
Proof.
  revert b. induction a as [|x a IH]; intros [|y b]; cbn [zlist_eqb]; try easy.
  rewrite andb_true_iff, Z.eqb_eq, IH. split; [intros [-> ->]; reflexivity | intros [= -> ->]; auto].
Qed.

Lemma zlist_eqb_spec a b : reflect (a = b) (zlist_eqb a b).
Proof. apply iff_reflect. symmetry. apply zlist_eqb_eq. Qed.

Lemma zlist_eqb_refl a : zlist_eqb a a = true.
Proof. apply zlist_eqb_eq. reflexivity. Qed.

Lemma mem_str_In k l : mem_str k l = true <-> In k l.
Proof.
  unfold mem_str. rewrite existsb_exists. split.
  - intros [x [Hin He]]. apply zlist_eqb_eq in He. subst. exact Hin.
  - intros H. exists k. split; [exact H | apply zlist_eqb_refl].
Qed.
