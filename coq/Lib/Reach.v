(* Reflective finite closure for a nondeterministic transition system `step : St -> Op -> list St`:
   if a finite table of states contains the initial state, is closed under every operation of a
   finite list (all successors), and satisfies a boolean predicate everywhere, then the predicate
   holds in EVERY reachable state -- after histories of any length, with any resolution of the
   nondeterminism.  Proved once by induction over reachability; table and checks by vm_compute.
   The table of an exploration that emptied its worklist is closed by construction (`explored_sound`). *)
From Coq Require Import List Bool PArith FMapPositive.
Import ListNotations.
Module PM := PositiveMap.

Section Reach.
  Variables (St Op : Type).
  (* only a hash: states with the same key share a bucket and are told apart by `eqb` *)
  Variable key : St -> positive.
  Variable eqb : St -> St -> bool.
  Hypothesis eqb_eq : forall a b, eqb a b = true -> a = b.
  Variable step : St -> Op -> list St.
  Variable ops : list Op.
  Variable P : St -> bool.
  Variable init : St.

  Inductive reach : St -> Prop :=
  | reach_init : reach init
  | reach_step s o s' : reach s -> In o ops -> In s' (step s o) -> reach s'.

  Definition table := PM.t (list St).

  Definition mem (m : table) (s : St) : bool :=
    match PM.find (key s) m with Some l => existsb (eqb s) l | None => false end.

  Definition add (m : table) (s : St) : table :=
    PM.add (key s) (s :: match PM.find (key s) m with Some l => l | None => [] end) m.

  Definition states (m : table) : list St := flat_map snd (PM.elements m).

  Definition closed (m : table) : bool :=
    forallb (fun s => forallb (fun o => forallb (mem m) (step s o)) ops) (states m).

  Definition allP (m : table) : bool := forallb P (states m).

  (* worklist exploration; its result is only ever *checked*, never trusted *)
  Fixpoint bfs (fuel : nat) (work : list St) (m : table) : table * bool :=
    match fuel with
    | O => (m, match work with [] => true | _ => false end)
    | S f =>
      match work with
      | [] => (m, true)
      | s :: w =>
        let '(w', m') :=
          fold_left (fun (acc : list St * table) s' =>
                       let '(w, m) := acc in
                       if mem m s' then (w, m) else (s' :: w, add m s'))
                    (flat_map (step s) ops) (w, m) in
        bfs f w' m'
      end
    end.

  Definition closure (fuel : nat) : table * bool :=
    bfs fuel [init] (add (PM.empty _) init).

  Definition has (m : table) (s : St) : Prop :=
    exists l, PM.find (key s) m = Some l /\ In s l.

  Lemma mem_has m s : mem m s = true -> has m s.
  Proof.
    unfold mem, has. destruct (PM.find (key s) m) as [l|]; [|discriminate].
    intros H. apply existsb_exists in H as [x [Hx Hs]]. apply eqb_eq in Hs. subst x. eauto.
  Qed.

  Lemma has_states m s : has m s -> In s (states m).
  Proof.
    intros [l [E H]]. apply in_flat_map. exists (key s, l). split; [apply PM.elements_correct, E|exact H].
  Qed.

  Lemma mem_In m s : mem m s = true -> In s (states m).
  Proof. intros H. apply has_states, mem_has, H. Qed.

  Theorem closure_sound m :
    mem m init = true -> closed m = true -> allP m = true ->
    forall s, reach s -> P s = true.
  Proof.
    intros Hinit Hclosed HP.
    assert (Hinv : forall s, reach s -> In s (states m)).
    { induction 1 as [|s o s' _ IH Ho Hs'].
      - apply mem_In; exact Hinit.
      - apply mem_In.
        unfold closed in Hclosed. rewrite forallb_forall in Hclosed.
        specialize (Hclosed s IH). rewrite forallb_forall in Hclosed.
        specialize (Hclosed o Ho). rewrite forallb_forall in Hclosed. apply Hclosed. exact Hs'. }
    intros s Hs. unfold allP in HP. rewrite forallb_forall in HP. apply HP. apply Hinv. exact Hs.
  Qed.
  (* An exploration that ends with an empty worklist needs no second pass: while it runs, every state of
     the table is either still on the worklist or has all its successors in the table. *)
  Lemma has_add m s x : has (add m s) x <-> x = s \/ has m x.
  Proof.
    unfold has, add. destruct (Pos.eq_dec (key x) (key s)) as [E|N].
    - rewrite E, PM.gss. split.
      + intros [l [[= <-] [<-|H]]]; [now left|right].
        destruct (PM.find (key s) m) as [l'|]; [eauto|destruct H].
      + intros [->|[l [El H]]]; eexists; (split; [reflexivity|]); [now left|right; now rewrite El].
    - rewrite PM.gso by exact N. split; [now right|intros [->|H]; [congruence|exact H]].
  Qed.

  Definition visit (acc : list St * table) (s' : St) : list St * table :=
    let '(w, m) := acc in if mem m s' then (w, m) else (s' :: w, add m s').

  Lemma visit_all l : forall w m w' m',
    fold_left visit l (w, m) = (w', m') ->
    (forall x, In x l -> has m' x) /\
    (forall x, has m x -> has m' x) /\ (forall x, In x w -> In x w') /\
    (forall x, has m' x -> has m x \/ In x w').
  Proof.
    induction l as [|a l IH]; cbn [fold_left visit]; intros w m w' m' E.
    - injection E as <- <-. repeat split; auto. intros x [].
    - destruct (mem m a) eqn:Ha; apply IH in E as (Hl & Hm & Hw & Hn).
      + repeat split; auto. intros x [<-|H]; auto using mem_has.
      + repeat split.
        * intros x [<-|H]; [apply Hm, has_add; now left|auto].
        * intros x H. apply Hm, has_add. now right.
        * intros x H. apply Hw. now right.
        * intros x H. apply Hn in H as [H|H]; [|now right].
          apply has_add in H as [->|H]; [right; apply Hw; now left|now left].
  Qed.

  Definition expanded (m : table) (s : St) : Prop :=
    forall o s', In o ops -> In s' (step s o) -> has m s'.

  Lemma bfs_closed fuel : forall work m m',
    bfs fuel work m = (m', true) ->
    (forall s, has m s -> In s work \/ expanded m s) ->
    (forall s, has m s -> has m' s) /\ (forall s, has m' s -> expanded m' s).
  Proof.
    induction fuel as [|f IH]; intros work m m'; cbn [bfs].
    - destruct work; [|discriminate]. intros [= <-] I. split; [auto|]. intros s H. now destruct (I s H).
    - destruct work as [|s w].
      { intros [= <-] I. split; [auto|]. intros s H. now destruct (I s H). }
      change (fold_left _ ?l ?a) with (fold_left visit l a).
      destruct (fold_left visit _ _) as [w1 m1] eqn:E. apply visit_all in E as (Hl & Hm & Hw & Hn).
      intros B I. apply IH in B as [B1 B2]; [split; auto|].
      intros x Hx. apply Hn in Hx as [Hx|Hx]; [|now left].
      destruct (I x Hx) as [[<-|Hi]|Hi]; [right|now left; apply Hw|right].
      + intros o s' Ho Hs. apply Hl, in_flat_map. eauto.
      + intros o s' Ho Hs. apply Hm, (Hi o s' Ho Hs).
  Qed.

  Theorem explored_sound fuel m :
    closure fuel = (m, true) -> allP m = true -> forall s, reach s -> P s = true.
  Proof.
    unfold closure, allP. intros B HP.
    apply bfs_closed in B as [B1 B2]; [|intros s H; apply has_add in H as [->|[l [E _]]]; [now left; left|now rewrite PM.gempty in E]].
    assert (R : forall s, reach s -> has m s).
    { induction 1 as [|s o s' _ IH Ho Hs]; [apply B1, has_add; now left|exact (B2 s IH o s' Ho Hs)]. }
    intros s Hs. rewrite forallb_forall in HP. apply HP, has_states, R, Hs.
  Qed.
End Reach.

(* reachability from a reachable state adds nothing *)
Lemma reach_trans {St Op} {step : St -> Op -> list St} {ops} a b s :
  reach St Op step ops a b -> reach St Op step ops b s -> reach St Op step ops a s.
Proof. intros Hb H. induction H; [exact Hb | eapply reach_step; eassumption]. Qed.
