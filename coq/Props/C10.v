(* C10 -- Finished calls leave nothing behind; waiters for a stream slot all proceed.
   This file holds only the property theorems; each is closed by a lemma proved in Proofs/C10Proofs.v
   (there for every state that satisfies the invariant) and followed by Print Assumptions.  The model
   (Model/Registry.v) covers one live connection; a history is ANY list of ops (client calls, handler
   actions, frame deliveries, SETTINGS), so every theorem below quantifies over all call mixes,
   outcomes, interleavings and limits. *)
From Coq Require Import ZArith List Bool Arith.
From GV Require Import Model.Registry Proofs.C10Proofs Proofs.C10Examples.
Import ListNotations.

(* (1) tracked(side) = exactly the calls of that side between successful open / accept and exit,
   each once *)
Theorem C10_tracked_invariant :
  forall n m ops, let s := run ops (init n m) in
  (NoDup (creg s) /\ forall c, In c (creg s) <-> has is_opened (calls s) c) /\
  (NoDup (sreg s) /\ forall c, In c (sreg s) <-> has is_running (calls s) c).
Proof. intros n m ops. destruct (Inv_reach n m ops) as [_ B C _ _]. exact (conj B C). Qed.
Print Assumptions C10_tracked_invariant.

(* (2a) the client side alone, whatever the peer did and whatever is still in flight *)
Theorem C10_client_side_clean :
  forall n m ops, let s := run ops (init n m) in
  all_calls is_cexited s -> creg s = [] /\ open_out s = 0.
Proof. intros n m ops. apply client_side_clean, Inv_reach. Qed.
Print Assumptions C10_client_side_clean.

(* (2b) both sides: after any history in which all calls have exited, writing is not paused and the
   client's frames have arrived, nothing is tracked and no h2 stream is open on either side.  (While
   writing is paused the RST_STREAM of a context exit waits in the client's h2 buffer; resume_writing
   writes it -- the repaired D45 -- which is what the invariant "nothing held back unless paused" uses.) *)
Theorem C10_no_open_streams :
  forall n m ops, let s := run ops (init n m) in
  all_calls is_cexited s -> all_calls (fun k => negb (is_running k)) s ->
  all_calls (fun k => match k_qc k with [] => true | _ => false end) s ->
  cpaused s = false ->
  creg s = [] /\ sreg s = [] /\ open_out s = 0 /\ open_in s = 0.
Proof. intros n m ops. apply no_open_streams, Inv_reach. Qed.
Print Assumptions C10_no_open_streams.

(* (2b') per call, whatever the handler does (it may still be waiting for the client): the client has
   left the context, writing is possible, the frames have arrived => the stream counts on neither side *)
Theorem C10_client_exit_reaches_server :
  forall n m ops c k, let s := run ops (init n m) in
  nth_error (calls s) c = Some k -> k_cph k = CExited -> k_qc k = [] -> cpaused s = false ->
  h2_open (k_ch k) = false /\ h2_open (k_sh k) = false.
Proof. intros n m ops c k. apply client_exit_reaches_server, Inv_reach. Qed.
Print Assumptions C10_client_exit_reaches_server.

(* a context exit while writing is paused: h2 closes the stream at once for the client, the frame is held
   back; any write, and resume_writing at the latest, releases everything held back *)
Theorem C10_flush_releases_held :
  forall s, all_calls (fun k => negb (k_held k)) (fst (step s CFlush)) /\
  (all_calls (fun k => negb (k_held k)) (fst (step s CResume)) /\ cpaused (fst (step s CResume)) = false).
Proof. intros s. repeat split; intros c k E; apply negb_true_iff, (flushed _ c k E). Qed.
Print Assumptions C10_flush_releases_held.

Theorem C10_exit_while_paused_is_held_then_released :
  let s := run held_example (init 1 100%Z) in
  creg s = [] /\ open_out s = 0 /\ open_in s = 1 /\ idx_where k_held (calls s) = [0] /\
  let s' := run [CResume; DeliverC2S 0] s in
  idx_where k_held (calls s') = [] /\ open_in s' = 0.
Proof. cbn. repeat split; reflexivity. Qed.
Print Assumptions C10_exit_while_paused_is_held_then_released.

(* (2c) the server side alone, against any client that has closed its half of every stream: a finished
   handler must not keep an h2 stream open.
   FULL STATEMENT -- false of the faithful model (D4), refuted below:
     forall n m ops, let s := run ops (init n m) in
     all_calls (fun k => negb (is_running k)) s ->
     all_calls (fun k => match k_qc k with [] => true | _ => false end) s ->
     all_calls client_half_closed s -> sreg s = [] /\ open_in s = 0.
   The extra hypothesis of the partial theorem, `is_leak k = false`, excludes exactly the handlers whose
   request_handler was left by a BaseException (from the body: D4; a cancellation inside
   Stream.__aexit__ while the terminal response waited for write_ready: D48; cancelled before the first
   step) while the server had neither ended nor reset the stream and had not been reset
   (C10_leak_class_is_D4). *)
Theorem C10_no_open_streams_server_partial :
  forall n m ops, let s := run ops (init n m) in
  all_calls (fun k => negb (is_running k)) s ->
  all_calls (fun k => negb (is_leak k)) s ->
  all_calls (fun k => match k_qc k with [] => true | _ => false end) s ->
  all_calls client_half_closed s ->
  sreg s = [] /\ open_in s = 0.
Proof. intros n m ops. apply no_open_streams_server_partial, Inv_reach. Qed.
Print Assumptions C10_no_open_streams_server_partial.

Theorem C10_no_open_streams_server_refuted :
  exists n m ops, let s := run ops (init n m) in
    all_calls (fun k => negb (is_running k)) s /\
    all_calls (fun k => match k_qc k with [] => true | _ => false end) s /\
    all_calls client_half_closed s /\
    sreg s = [] /\ open_in s = 1 /\ open_out s = 1.
Proof. exact no_open_streams_server_refuted. Qed.
Print Assumptions C10_no_open_streams_server_refuted.

Theorem C10_leak_class_is_D4 :
  forall s c x k k', reachable s -> nth_error (calls s) c = Some k -> k_sph k = SRunning ->
  nth_error (calls (fst (step s (SExit c x)))) c = Some k' -> k_sph k' = SExited true ->
  x = KBase /\ h2_open (k_sh k) = true /\ h_se (k_sh k) = false.
Proof.
  intros s c x k k' R E. apply leak_only_from_base; auto. apply (i_calls s (reachable_inv s R) c k E).
Qed.
Print Assumptions C10_leak_class_is_D4.

(* (2d) the mechanism for error endings: non-OK trailers -- sent explicitly or at the end of a handler
   that failed -- leave the stream closed at the server at once (RST_STREAM after the trailers when the
   client has not ended its half), so it stops counting before the client reacts *)
Theorem C10_error_status_closes_stream :
  forall s c k, nth_error (calls s) c = Some k -> k_sph k = SRunning ->
  (snd (step s (STrailers c true)) = ONone ->
   exists k', nth_error (calls (fst (step s (STrailers c true)))) c = Some k' /\ h2_open (k_sh k') = false) /\
  (k_trail k = false -> k_cancel k = false ->
   exists k', nth_error (calls (fst (step s (SExit c KErr)))) c = Some k' /\ h2_open (k_sh k') = false).
Proof. exact error_status_closes_stream. Qed.
Print Assumptions C10_error_status_closes_stream.

(* (3) waiters.  No lost wake-up: in every reachable quiescent state a call blocked on
   stream_close_waiter faces as many open outbound streams as the last announced limit allows *)
Theorem C10_no_lost_wakeup :
  forall n m ops c, let s := run ops (init n m) in
  quiescent s = true -> has is_waiting (calls s) c -> (maxc s <= Z.of_nat (open_out s))%Z.
Proof. intros n m ops c. apply no_lost_wakeup, Inv_reach. Qed.
Print Assumptions C10_no_lost_wakeup.

(* every release wakes ALL waiters *)
Theorem C10_release_wakes_all :
  forall s c k, nth_error (calls s) c = Some k -> k_cph k = COpened ->
  let s' := fst (step s (CExit c)) in
  (forall d, ~ has is_waiting (calls s') d) /\ flag s' = true /\
  (forall d, has is_waiting (calls s) d -> has is_woken (calls s') d).
Proof. exact release_wakes_all. Qed.
Print Assumptions C10_release_wakes_all.

(* and so does every MAX_CONCURRENT_STREAMS announcement (the repaired D17) *)
Theorem C10_settings_wake_all :
  forall s v rest, sq s = v :: rest ->
  let s' := fst (step s DeliverSettings) in
  maxc s' = v /\ (forall d, ~ has is_waiting (calls s') d) /\ flag s' = true /\
  (forall d, has is_waiting (calls s) d -> has is_woken (calls s') d).
Proof.
  intros s v rest Q. simpl. rewrite Q. simpl.
  repeat split; [intros d; apply no_waiting_after_wake|apply waiting_woken].
Qed.
Print Assumptions C10_settings_wake_all.

(* asyncio's Event rule: a woken waiter stays runnable until it runs, even when the flag is cleared *)
Theorem C10_woken_stays_woken :
  forall s o c, has is_woken (calls s) c -> (forall es, o <> COpenTry c es) -> o <> CExit c ->
  has is_woken (calls (fst (step s o))) c.
Proof. exact woken_stays_woken. Qed.
Print Assumptions C10_woken_stays_woken.

(* each waiter, when it runs with a free slot, proceeds (and is tracked) ... *)
Theorem C10_woken_with_slot_proceeds :
  forall s c k es, nth_error (calls s) c = Some k -> (k_cph k = CWoken \/ k_cph k = CNew) ->
  (Z.of_nat (open_out s) < maxc s)%Z ->
  snd (step s (COpenTry c es)) = OOpened /\ has is_opened (calls (fst (step s (COpenTry c es)))) c /\
  In c (creg (fst (step s (COpenTry c es)))).
Proof.
  intros s c k es E Ph LT. rewrite (try_nw s c k es E (proj2 (nw_phase k) Ph)), (proj2 (Z.ltb_lt _ _) LT).
  repeat split; [apply (has_upd_at _ _ _ _ _ E); reflexivity|left; reflexivity].
Qed.
Print Assumptions C10_woken_with_slot_proceeds.

(* ... and without one it re-blocks and changes nothing else *)
Theorem C10_woken_without_slot_reblocks :
  forall s c k es, nth_error (calls s) c = Some k -> (k_cph k = CWoken \/ k_cph k = CNew) ->
  (maxc s <= Z.of_nat (open_out s))%Z ->
  snd (step s (COpenTry c es)) = OBlocked /\
  fst (step s (COpenTry c es)) =
    Build_state (upd c (set_cph CWaiting) (calls s)) (creg s) (sreg s) (maxc s) false (sq s) (cpaused s).
Proof.
  intros s c k es E Ph LE. rewrite (try_nw s c k es E (proj2 (nw_phase k) Ph)), (proj2 (Z.ltb_ge _ _) LE).
  auto.
Qed.
Print Assumptions C10_woken_without_slot_reblocks.

(* (4) the documented non-FIFO behaviour: with any number of runnable waiters and ONE free slot, the
   one that happens to run first takes it and all others re-block ... *)
Theorem C10_one_slot_first_wins :
  forall s c es rest k, reachable s -> nth_error (calls s) c = Some k -> is_nw k = true ->
  (Z.of_nat (open_out s) + 1 = maxc s)%Z ->
  let s' := retry ((c, es) :: rest) s in
  has is_opened (calls s') c /\ open_out s' = S (open_out s) /\
  (forall d, d <> c -> In d (map fst rest) -> has is_nw (calls s) d -> has is_waiting (calls s') d).
Proof. intros s c es rest k R. apply one_slot_first_wins, reachable_inv, R. Qed.
Print Assumptions C10_one_slot_first_wins.

(* ... no waiter is ever lost by retries (it still waits, or it has started) ... *)
Theorem C10_retry_keeps_waiters :
  forall l s d, has is_pending (calls s) d ->
  has is_pending (calls (retry l s)) d \/ has is_opened (calls (retry l s)) d.
Proof. exact retry_keeps_waiters. Qed.
Print Assumptions C10_retry_keeps_waiters.

(* ... and with enough releases ALL proceed, for every limit >= 1, every order of retries that includes
   all runnable waiters, every order in which opened calls finish: after phi(s) = 2*pending + opened
   rounds (a round = the retries, then one opened call leaves its context) nobody waits and no call is
   opened; a round
   consists only of retries and of context exits of OPENED calls (C10_round_is_history), so every call
   that waited has started *)
Theorem C10_all_waiters_proceed :
  forall ord pick n s, fair_ord ord -> fair_pick pick -> reachable s -> (1 <= maxc s)%Z -> phi s <= n ->
  pending_count (rounds n ord pick s) = 0 /\ opened_count (rounds n ord pick s) = 0.
Proof. intros ord pick n s FO FP R. apply all_waiters_proceed; auto using reachable_inv. Qed.
Print Assumptions C10_all_waiters_proceed.

Theorem C10_round_is_history :
  forall ord pick s, exists ops, round ord pick s = run ops s /\
    forall o, In o ops -> (exists c es, o = COpenTry c es) \/
                          (exists c, o = CExit c /\ pick (retry (ord s) s) = Some c).
Proof. exact round_is_history. Qed.
Print Assumptions C10_round_is_history.

(* the fairness hypotheses are satisfiable (FIFO-reversed retries, lowest opened call leaves first) *)
Theorem C10_fairness_inhabited : fair_ord ord_all /\ fair_pick pick_first.
Proof. exact (conj ord_all_fair pick_first_fair). Qed.
Print Assumptions C10_fairness_inhabited.
