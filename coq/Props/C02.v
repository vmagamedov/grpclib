(* C02 -- Client call outcome is a total, spec-conformant function of the response.
   This file holds only the property theorems, each followed by Print Assumptions; each is closed by a
   lemma proved in Proofs/C02Proofs.v -- those of the bounded domain by a field of [domain_cell] -- or,
   where it speaks of generated constants or of a witness script, by evaluation.

   Reading guide.  A response script is a list of batches of events (Model/ClientCall.v); a header
   block is seen by the call only through alpha (status class, content-type class, grpc-status class,
   metadata class); [outcome k bs] runs the call program of kind k on the abstract script,
   [observe] resolves it against the strings.  [spec_allows bs r] is the table of the property
   statement.  From Proofs/C02Proofs.v: [ct_value_ok csub v], the content-type values a client with
   codec subtype csub accepts; [row_*_hyp k bs], the boolean hypothesis that selects a row of the
   table; [one es], the script that delivers es in one batch; [H_ok g m] / [T_of g], an acceptable
   header block / a trailer block of grpc-status class g.  Three cells of the statement are FALSE of the faithful model; they are kept visible as
   `_refuted` theorems with their witnesses (findings D2c, D2d, D2g) next to the `_partial` theorems
   whose hypothesis excludes exactly the recorded class.  (D2e -- END_STREAM without trailers made the
   call hang -- and D2f -- an open() context left after GOAWAY exited successfully -- were found here and
   repaired in /repo; their theorems are now at full strength.) *)
From Coq Require Import ZArith List Bool String.
From GV Require Import Lib.Str Gen.Facts Gen.FactsC02 Model.Base64 Model.Metadata Model.PyInt
  Model.ClientCall Proofs.C02Proofs.
Import ListNotations.
Open Scope Z_scope.

(* (1) alpha on ALL strings *)

(* dict(headers): the last pair with a name wins *)
Theorem C02_dict_last_wins :
  forall k v hs1 hs2, (forall w, ~ In (k, w) hs2) -> dict_get k (hs1 ++ (k, v) :: hs2) = Some v.
Proof. exact dict_get_last_wins. Qed.
Print Assumptions C02_dict_last_wins.

(* a grpc-status value is a valid status k exactly when Python's int() reads k and 0 <= k <= 16
   (the range comes from the generated Status table) *)
Theorem C02_grpc_status_valid :
  forall v k, grpc_status_of_value v = GsvValid k <-> py_int v = Some k /\ 0 <= k <= 16.
Proof. exact grpc_status_valid_iff. Qed.
Print Assumptions C02_grpc_status_valid.

Theorem C02_grpc_status_invalid :
  forall v, grpc_status_of_value v = GsvInvalid <->
            py_int v = None \/ exists k, py_int v = Some k /\ ~ (0 <= k <= 16).
Proof. exact grpc_status_invalid_iff. Qed.
Print Assumptions C02_grpc_status_invalid.

(* what a conforming server sends is read back *)
Theorem C02_grpc_status_canonical :
  forall k, 0 <= k <= 16 -> grpc_status_of_value (py_str_nat k) = GsvValid k.
Proof. exact grpc_status_canonical. Qed.
Print Assumptions C02_grpc_status_canonical.

(* the four grpc-status classes of a block *)
Theorem C02_class_grpc_status_absent :
  forall csub hs, hi_gs (alpha_h csub hs) = GsAbsent <-> dict_get K_GS hs = None.
Proof. exact alpha_gs_absent. Qed.
Print Assumptions C02_class_grpc_status_absent.

Theorem C02_class_grpc_status_ok :
  forall csub hs, hi_gs (alpha_h csub hs) = GsOk <->
                  exists v, dict_get K_GS hs = Some v /\ py_int v = Some 0.
Proof. exact alpha_gs_ok. Qed.
Print Assumptions C02_class_grpc_status_ok.

Theorem C02_class_grpc_status_err :
  forall csub hs, hi_gs (alpha_h csub hs) = GsErr <->
                  exists v k, dict_get K_GS hs = Some v /\ py_int v = Some k /\ 1 <= k <= 16.
Proof. exact alpha_gs_err. Qed.
Print Assumptions C02_class_grpc_status_err.

Theorem C02_class_grpc_status_invalid :
  forall csub hs, hi_gs (alpha_h csub hs) = GsInvalid <->
                  exists v, dict_get K_GS hs = Some v /\
                            (py_int v = None \/ exists k, py_int v = Some k /\ ~ (0 <= k <= 16)).
Proof. exact alpha_gs_invalid. Qed.
Print Assumptions C02_class_grpc_status_invalid.

(* :status: class 200 iff the (last) :status header is "200"; otherwise the raised status is the entry of
   the generated table, UNKNOWN when there is none -- also when :status is missing *)
Theorem C02_class_status_200 :
  forall csub hs, hi_st (alpha_h csub hs) = S200 <-> dict_get K_STATUS hs = Some h2_ok.
Proof. exact alpha_status_200. Qed.
Print Assumptions C02_class_status_200.

Theorem C02_http_status_error :
  forall hs st, http_status_error hs = Some st <->
  (exists v, dict_get K_STATUS hs = Some v /\ v <> h2_ok /\
             st = match assoc_str v h2_to_grpc_status_map with Some s => s | None => non200_default_status end)
  \/ (dict_get K_STATUS hs = None /\ st = non200_default_status).
Proof. exact http_status_error_spec. Qed.
Print Assumptions C02_http_status_error.

(* the table in the source is the one the gRPC specification mandates *)
Theorem C02_http_table_is_spec :
  h2_ok = s2z "200" /\ non200_default_status = 2 /\
  forall v, assoc_str v h2_to_grpc_status_map =
            assoc_str v [(s2z "400", 13); (s2z "401", 16); (s2z "403", 7); (s2z "404", 12);
                         (s2z "502", 14); (s2z "503", 14); (s2z "504", 14); (s2z "429", 14)].
Proof. split; [vm_compute; reflexivity|]. split; [vm_compute; reflexivity|]. intros v. reflexivity. Qed.
Print Assumptions C02_http_table_is_spec.

(* content-type: class Ok iff the (last) content-type header has one of the values spelled out below *)
Theorem C02_class_content_type_ok :
  forall csub hs, content_type_class csub hs = CtOk <->
                  exists v, dict_get K_CT hs = Some v /\ ct_value_ok csub v = true.
Proof. exact content_type_class_ok. Qed.
Print Assumptions C02_class_content_type_ok.

Theorem C02_class_content_type_missing :
  forall csub hs, content_type_class csub hs = CtMissing <-> dict_get K_CT hs = None.
Proof. exact content_type_class_missing. Qed.
Print Assumptions C02_class_content_type_missing.

(* with the proto codec exactly three spellings are accepted *)
Theorem C02_content_type_values_proto :
  forall v, ct_value_ok proto_content_subtype v = true <->
            v = grpc_content_type \/ v = grpc_content_type ++ [43] \/
            v = grpc_content_type ++ 43 :: proto_content_subtype.
Proof. exact ct_value_ok_proto. Qed.
Print Assumptions C02_content_type_values_proto.

(* ... and for EVERY codec subtype (e.g. "json"): application/grpc+<subtype>, plus the two subtype-less
   spellings only when the subtype is the default "proto" -- no prefix, suffix or substring of an
   accepted value is accepted *)
Theorem C02_content_type_values_all_subtypes :
  forall csub v, ct_value_ok csub v = true <->
    (csub = proto_content_subtype /\ (v = grpc_content_type \/ v = grpc_content_type ++ [43]))
    \/ (csub <> [] /\ v = grpc_content_type ++ 43 :: csub).
Proof. exact ct_value_ok_all_subtypes. Qed.
Print Assumptions C02_content_type_values_all_subtypes.

(* what the source means (Gen.FactsC02 is regenerated from /repo on every run by an expanded, ordered
   walk of the public entry points -- private helpers, local names and control-flow spelling are invisible):
   constants by value, which headers are consulted in which order, which statuses the client makes up, what
   the context exit does, what is caught, what the four __call__ bodies do *)
Theorem C02_source_facts :
  grpc_content_type = s2z "application/grpc" /\ proto_content_subtype = s2z "proto" /\
  non200_default_status = 2 /\ content_type_status = 2 /\ grpc_status_error_status = 2 /\
  (* recv_initial_metadata consults :status, then content-type, then grpc-status (+ message, details) *)
  ri_keys = map s2z [":status"; "content-type"; "grpc-status"; "grpc-message"; "grpc-status-details-bin"]%string /\
  rt_keys = map s2z ["grpc-status"; "grpc-message"; "grpc-status-details-bin"]%string /\
  (* context exit: both implicit receives, only StreamTerminatedError is upgraded, from :status then grpc-status *)
  exit_events = map s2z
    ["call recv_initial_metadata"; "call recv_trailing_metadata"; "isinstance StreamTerminatedError";
     "key :status"; "key grpc-status"; "key grpc-message"; "key grpc-status-details-bin"]%string /\
  rt_caught = map s2z ["Exception"; "ValueError"]%string /\
  exit_caught = map s2z ["Exception"; "ValueError"]%string /\
  call_uu = map s2z ["open"; "send_message"; "recv_message"; "assert-not-none"]%string /\
  call_us = map s2z ["open"; "send_message"; "aiter"]%string /\
  call_su = map s2z ["open"; "send_message"; "send_request"; "recv_message"; "assert-not-none"]%string /\
  call_ss = map s2z ["open"; "send_message"; "send_request"; "aiter"]%string.
Proof. repeat split; vm_compute; reflexivity. Qed.
Print Assumptions C02_source_facts.

(* (2) the bounded abstract domain, closed by evaluation (C02Proofs.sweep: the outcome is computed once
   per class of scripts that the call program cannot tell apart -- outcome_norm -- and the checks of
   every member are applied to it).
   BOUND: (lis, k, m) ranges over configs = the four __call__ kinds and 8 open() bodies (the cardinality
   of an open() kind is irrelevant: C02_open_cardinality_irrelevant), each (a) without listeners, m = 2,
   and (b) with suspending listeners on RecvInitialMetadata, RecvMessage and RecvTrailingMetadata, m = 1;
   bs over cases_of (lis, k, m) = every header class (2 x 3 x 4 x 2) x trailer class (4 x 2)
   x layout {nothing, H, H(END), H D^n, H D^n(END), H D^n T; n <= m} x cut {none, RST, GOAWAY, lost}
   x every split point of the cut batch x {one batch, one batch per event} x every trigger
   {blocked, before step i, (b): during a listener suspension}. *)

Theorem C02_open_cardinality_irrelevant :
  forall lis cs ss cs' ss' p bs,
    outcome lis (Open cs ss p) bs = outcome lis (Open cs' ss' p) bs /\
    defect (Open cs ss p) bs = defect (Open cs' ss' p) bs.
Proof. exact open_cardinality_irrelevant. Qed.
Print Assumptions C02_open_cardinality_irrelevant.

(* FULL-STRENGTH STATEMENT (false):
     forall lis k m bs, In (lis, k, m) configs -> In bs (cases_of (lis, k, m)) -> spec_allows bs (outcome lis k bs) = true *)
Theorem C02_table_refuted :
  exists lis k m bs, In (lis, k, m) configs /\ wf_script bs = true /\ spec_allows bs (outcome lis k bs) = false.
Proof. exact table_refuted. Qed.
Print Assumptions C02_table_refuted.

(* every cell of the statement's table, outside the three recorded defect classes *)
Theorem C02_table_partial :
  forall lis k m bs, In (lis, k, m) configs -> In bs (cases_of (lis, k, m)) -> defect k bs = false ->
               spec_allows bs (outcome lis k bs) = true.
Proof. intros lis k m bs Hk Hbs. exact (c_table _ _ _ (domain_cell lis k m bs Hk Hbs)). Qed.
Print Assumptions C02_table_partial.

(* success only if grpc-status OK was received on an acceptable response: FULL STRENGTH, the four
   __call__ methods and every open() body *)
Theorem C02_ok_sound :
  forall lis k m bs n, In (lis, k, m) configs -> In bs (cases_of (lis, k, m)) -> outcome lis k bs = ROk n ->
                 status_ok_received bs = true.
Proof. intros lis k m bs n Hk Hbs. exact (c_ok _ _ _ (domain_cell lis k m bs Hk Hbs) n). Qed.
Print Assumptions C02_ok_sound.

(* the repaired cell (formerly D2f): GOAWAY / connection loss delivered before the exit of an open() body.
   The body read one message, then trailers with a non-OK status and GOAWAY arrive: the implicit receive
   fails at once and is upgraded to the server's status; a body that received nothing before the connection
   was lost ends in StreamTerminatedError; an exchange whose trailers were already consumed exits cleanly *)
Theorem C02_closing_before_exit :
  let bs := [{| b_trig := TB; b_events := [AH (H_ok GsAbsent MdOk) false; AD false] |};
             {| b_trig := TS 1; b_events := [AT (T_of GsErr); AGoaway] |}] in
  let done := [{| b_trig := TB; b_events := [AH (H_ok GsAbsent MdOk) false; AD false; AT (T_of GsOk)] |};
               {| b_trig := TS 3; b_events := [AGoaway] |}] in
  wf_script bs = true /\ outcome no_listeners (Open false false [RM]) bs = RExc (XServer BTrl) /\
  outcome no_listeners (Open false false []) [{| b_trig := TS 0; b_events := [ALost] |}] = RExc XTerminated /\
  outcome no_listeners (Open false false [RI; RM; RT]) done = ROk 1.
Proof. vm_compute. repeat split. Qed.
Print Assumptions C02_closing_before_exit.

(* only GRPCError / StreamTerminatedError leave the call ... *)
Theorem C02_only_grpc_errors_partial :
  forall lis k m bs e, In (lis, k, m) configs -> In bs (cases_of (lis, k, m)) -> d2c k bs = false -> d2d k bs = false ->
                 outcome lis k bs = RExc e ->
                 e <> XProtocol /\ e <> XAssertion /\ (forall b, e <> XMetadata b).
Proof. intros lis k m bs e Hk Hbs. exact (c_exc _ _ _ (domain_cell lis k m bs Hk Hbs) e). Qed.
Print Assumptions C02_only_grpc_errors_partial.

(* ... FULL-STRENGTH (false): malformed user -bin metadata escapes as binascii.Error (D2c) *)
Theorem C02_metadata_error_refuted :
  let bs := one [AH (H_ok GsAbsent MdBad) false; AD false; AT (T_of GsOk)] in
  wf_script bs = true /\ outcome no_listeners (Call false false) bs = RExc (XMetadata BHdr) /\
  spec_allows bs (outcome no_listeners (Call false false) bs) = false.
Proof. exact d2c_refuted. Qed.
Print Assumptions C02_metadata_error_refuted.

(* ... and grpc-status OK without a message on a unary-reply call escapes as AssertionError (D2d) *)
Theorem C02_assertion_refuted :
  let bs := one [AH (H_ok GsOk MdOk) true] in
  wf_script bs = true /\ outcome no_listeners (Call false false) bs = RExc XAssertion /\
  spec_allows bs (outcome no_listeners (Call false false) bs) = false.
Proof. exact d2d_refuted. Qed.
Print Assumptions C02_assertion_refuted.

(* the cut is delivered while a listener is suspended (inside `with self._wrapper`): the operation ends
   in StreamTerminatedError and __aexit__ upgrades it to the status that had arrived -- also when
   recv_trailing_metadata has already set its done-flag (it sets it BEFORE it dispatches, so an upgrade
   that skipped "already received" trailers would lose the status).  Last conjunct: without a listener the
   same TL batch only arrives once the client blocks, and the call completes *)
Theorem C02_cut_during_listener :
  let resp := [{| b_trig := TB; b_events := [AH (H_ok GsAbsent MdOk) false; AD false; AT (T_of GsErr)] |}] in
  let lt := {| l_init := false; l_msg := false; l_trail := true |} in
  outcome lt (Call false false) (resp ++ [{| b_trig := TL; b_events := [ALost] |}]) = RExc (XServer BTrl) /\
  outcome lt (Open true true [RI; IT; RT]) (resp ++ [{| b_trig := TL; b_events := [ARst] |}])
  = RExc (XServer BTrl) /\
  outcome all_listeners (Call false true)
          [{| b_trig := TB; b_events := [AH (H_ok GsErr MdOk) false] |}; {| b_trig := TL; b_events := [AGoaway] |}]
  = RExc (XServer BHdr) /\
  outcome all_listeners (Call true false)
          [{| b_trig := TB; b_events := [AH (H_ok GsAbsent MdOk) false; AD false] |};
           {| b_trig := TL; b_events := [ALost] |}]
  = RExc XTerminated /\
  outcome no_listeners (Call false false) (resp ++ [{| b_trig := TL; b_events := [ALost] |}])
  = RExc (XServer BTrl).
Proof. vm_compute. repeat split. Qed.
Print Assumptions C02_cut_during_listener.

(* invalid content-type + grpc-status + reset: the server's status instead of UNKNOWN (D2g) *)
Theorem C02_content_type_on_cut_refuted :
  let bs := one [AH {| hi_st := S200; hi_ct := CtBad; hi_gs := GsErr; hi_md := MdOk |} false; ARst] in
  wf_script bs = true /\ outcome no_listeners (Call false false) bs = RExc (XServer BHdr) /\
  spec_allows bs (outcome no_listeners (Call false false) bs) = false /\
  outcome no_listeners (Call false false) (one [AH {| hi_st := S200; hi_ct := CtBad; hi_gs := GsErr; hi_md := MdOk |} false])
  = RExc XContentType.
Proof. exact d2g_refuted. Qed.
Print Assumptions C02_content_type_on_cut_refuted.

(* rows of the table with their exact outcome *)
Theorem C02_row_non200 :
  forall lis k m bs, In (lis, k, m) configs -> In bs (cases_of (lis, k, m)) -> row_non200_hyp k bs = true ->
               outcome lis k bs = RExc XHttpStatus.
Proof. intros lis k m bs Hk Hbs. exact (c_non200 _ _ _ (domain_cell lis k m bs Hk Hbs)). Qed.
Print Assumptions C02_row_non200.

Theorem C02_row_server_status_in_trailers :
  forall lis k m bs, In (lis, k, m) configs -> In bs (cases_of (lis, k, m)) -> row_server_trl_hyp k bs = true ->
               outcome lis k bs = RExc (XServer BTrl).
Proof. intros lis k m bs Hk Hbs. exact (c_server_trl _ _ _ (domain_cell lis k m bs Hk Hbs)). Qed.
Print Assumptions C02_row_server_status_in_trailers.

Theorem C02_row_server_status_trailers_only :
  forall lis k m bs, In (lis, k, m) configs -> In bs (cases_of (lis, k, m)) -> row_server_hdr_hyp k bs = true ->
               outcome lis k bs = RExc (XServer BHdr).
Proof. intros lis k m bs Hk Hbs. exact (c_server_hdr _ _ _ (domain_cell lis k m bs Hk Hbs)). Qed.
Print Assumptions C02_row_server_status_trailers_only.

Theorem C02_row_cut_before_any_status :
  forall lis k m bs, In (lis, k, m) configs -> In bs (cases_of (lis, k, m)) -> row_nothing_hyp k bs = true ->
               outcome lis k bs = RExc XTerminated.
Proof. intros lis k m bs Hk Hbs. exact (c_nothing _ _ _ (domain_cell lis k m bs Hk Hbs)). Qed.
Print Assumptions C02_row_cut_before_any_status.

Theorem C02_row_success :
  forall lis k m bs, In (lis, k, m) configs -> In bs (cases_of (lis, k, m)) -> row_success_hyp k bs = true ->
               exists n, outcome lis k bs = ROk n.
Proof. intros lis k m bs Hk Hbs. exact (c_success _ _ _ (domain_cell lis k m bs Hk Hbs)). Qed.
Print Assumptions C02_row_success.

(* (3) the call finishes *)

(* for ALL scripts (any length, any batching, any triggers), all kinds, all open() bodies and all sets of
   suspending listeners: an
   effective cut, or END_STREAM in a well-formed script (on the headers, on DATA, or on trailers), make
   the call finish.  FULL STRENGTH. *)
Theorem C02_no_hang :
  forall lis k bs,
    ev_cut (events bs) false = true \/ (wf_script bs = true /\ ev_ended (events bs) = true) ->
    outcome lis k bs <> RHang.
Proof. exact no_hang_general. Qed.
Print Assumptions C02_no_hang.

(* the same read off the enumeration *)
Theorem C02_no_hang_enumerated :
  forall lis k m bs, In (lis, k, m) configs -> In bs (cases_of (lis, k, m)) ->
               ev_ended (events bs) || ev_cut (events bs) false = true ->
               outcome lis k bs <> RHang.
Proof. intros lis k m bs Hk Hbs. exact (c_no_hang _ _ _ (domain_cell lis k m bs Hk Hbs)). Qed.
Print Assumptions C02_no_hang_enumerated.

(* the repaired cell (formerly D2e): END_STREAM without trailers and without grpc-status gives UNKNOWN *)
Theorem C02_row_end_stream_without_status :
  forall lis k m bs, In (lis, k, m) configs -> In bs (cases_of (lis, k, m)) -> row_missing_status_hyp k bs = true ->
               outcome lis k bs = RExc (XBadGrpcStatus BTrl).
Proof. intros lis k m bs Hk Hbs. exact (c_missing_status _ _ _ (domain_cell lis k m bs Hk Hbs)). Qed.
Print Assumptions C02_row_end_stream_without_status.

(* END_STREAM on DATA or on the HEADERS, no trailers: UNKNOWN "Missing grpc-status" *)
Theorem C02_end_stream_without_trailers :
  let bs := one [AH (H_ok GsAbsent MdOk) false; AD true] in
  let bs' := one [AH (H_ok GsAbsent MdOk) true] in
  wf_script bs = true /\ ev_ended (events bs) = true /\
  outcome no_listeners (Call false false) bs = RExc (XBadGrpcStatus BTrl) /\
  outcome no_listeners (Call false true) bs = RExc (XBadGrpcStatus BTrl) /\
  outcome no_listeners (Call false false) bs' = RExc (XBadGrpcStatus BTrl) /\
  outcome no_listeners (Open false true [RI; IT]) bs' = RExc (XBadGrpcStatus BTrl) /\
  spec_allows bs (RExc (XBadGrpcStatus BTrl)) = true.
Proof. vm_compute. repeat split. Qed.
Print Assumptions C02_end_stream_without_trailers.

(* the model never reaches its internal-inconsistency outcome on the domain *)
Theorem C02_never_stuck :
  forall lis k m bs, In (lis, k, m) configs -> In bs (cases_of (lis, k, m)) -> outcome lis k bs <> RStuck.
Proof. intros lis k m bs Hk Hbs. exact (c_not_stuck _ _ _ (domain_cell lis k m bs Hk Hbs)). Qed.
Print Assumptions C02_never_stuck.
