(* C09 -- Cancellation reaches the handler once; shutdown waits for handlers and ends.
   Only the property theorems; each is a lemma of Proofs/C09Proofs.v or a short corollary of one, and
   is followed by Print Assumptions.  Model: Model/ServerLife.v (all handler programs, all cause sequences, all
   schedules: `run_ops ops init` ranges over every list of operations, `Run c i` being the scheduler).
   Two full-strength statements are FALSE of the faithful model; they are kept in comments next to
   their refutation and their strongest true part. *)
From Coq Require Import List Bool Arith.
From GV Require Import Model.ServerLife Proofs.C09Proofs Proofs.C09Examples.
Import ListNotations.

(* (1) a reset touches one stream only.
   RST_STREAM for (c,i), in EVERY state: every other task, every connection, the server record and the
   waiter are untouched -- in particular nothing is raised out of data_received (Handler.cancel pops
   with a default; the former KeyError window D91 is repaired) *)
Theorem C09_rst_isolated : forall s c i,
  exists g, tasks (step s (Rst c i)) = map g (tasks s) /\
            (forall t, is_key c i t = false -> g t = t) /\
            conns (step s (Rst c i)) = conns s /\
            srv (step s (Rst c i)) = srv s /\ wst (step s (Rst c i)) = wst s.
Proof. exact rst_isolated. Qed.
Print Assumptions C09_rst_isolated.

(* the first reset of a stream whose handler is in flight cancels exactly that task: pending
   CancelledError, moved from _tasks to _cancelled, nothing delivered yet *)
Theorem C09_rst_cancels_target : forall ops c i t,
  let s := run_ops ops init in
  find_task c i (tasks s) = Some t -> unfinished t = true ->
  conn_open s c = true -> h2reset t = false ->
  exists t', find_task c i (tasks (step s (Rst c i))) = Some t' /\
             cancel_req t' = true /\ in_tasks t' = false /\ in_cancelled t' = true /\
             ncancel t' = ncancel t /\ ph t' = ph t.
Proof. exact rst_cancels_target. Qed.
Print Assumptions C09_rst_cancels_target.

(* a reset for a stream whose task is already done (collected from _tasks or not, stream not yet
   released) cancels and delivers nothing *)
Theorem C09_rst_noop_for_finished : forall t,
  unfinished t = false ->
  ph (rst_task t) = ph t /\ cancel_req (rst_task t) = cancel_req t /\ ncancel (rst_task t) = ncancel t /\
  nhit (rst_task t) = nhit t /\ registered (rst_task t) = registered t /\ nrel (rst_task t) = nrel t /\
  cb_pending (rst_task t) = cb_pending t /\ late (rst_task t) = late t.
Proof.
  intros t U. unfold rst_task, terminated, task_cancel. open_task t.
  destruct xp; try discriminate; cbn. destruct xit; cbn; repeat split; reflexivity.
Qed.
Print Assumptions C09_rst_noop_for_finished.

(* (2) each cause delivers one CancelledError.
   Over any history, a handler never sees more CancelledErrors than there were causes *)
Theorem C09_deliveries_le_causes : forall ops t,
  In t (tasks (run_ops ops init)) -> ncancel t <= count_causes ops.
Proof.
  intros ops t Ht. apply (Nat.le_trans _ (pend t)); [apply Nat.le_add_r | apply pend_le_causes, Ht].
Qed.
Print Assumptions C09_deliveries_le_causes.

(* one cause o reaching a started task without a pending cancel, followed by any operations that are
   not causes: deliveries + still-pending = old deliveries + (1 if o reached the task else 0) *)
Theorem C09_single_cause_one_delivery : forall s o ops t,
  is_cause o = true -> forallb (fun o => negb (is_cause o)) ops = true ->
  In t (tasks s) -> started_t t = true -> cancel_req t = false ->
  exists t1 t', In t1 (tasks (step s o)) /\ key t1 = key t /\ ncancel t1 = ncancel t /\
                In t' (tasks (run_ops ops (step s o))) /\ key t' = key t /\
                ncancel t' + (if cancel_req t' then 1 else 0)
                = ncancel t + (if cancel_req t1 then 1 else 0).
Proof. exact single_cause_one_delivery. Qed.
Print Assumptions C09_single_cause_one_delivery.

(* ... and the pending one is delivered at the task's current await the next time it runs *)
Theorem C09_run_delivers : forall t,
  cancel_req t = true -> unfinished t = true ->
  cancel_req (run_task t) = false /\ (started_t t = true -> ncancel (run_task t) = S (ncancel t)).
Proof. intros t C U. run_cases t; fields. Qed.
Print Assumptions C09_run_delivers.

(* connection_lost / GOAWAY / protocol error cancel every unfinished handler of the connection *)
Theorem C09_close_cancels_all : forall ops c b t',
  let s := run_ops ops init in
  (exists k, conn_at s c = Some k /\ lost k = false) ->
  In t' (tasks (processor_close s c b)) -> tc t' = c -> unfinished t' = true -> cancel_req t' = true.
Proof. exact close_cancels_all. Qed.
Print Assumptions C09_close_cancels_all.

(* Server.close() cancels every unfinished task still held in a handler's _tasks *)
Theorem C09_srvclose_cancels : forall ops t,
  let s := run_ops ops init in
  started (srv s) = true -> In t (tasks s) -> unfinished t = true -> in_tasks t = true ->
  exists t', In t' (tasks (step s SrvClose)) /\ key t' = key t /\
             cancel_req t' = true /\ in_cancelled t' = true /\ ncancel t' = ncancel t.
Proof. exact srvclose_cancels. Qed.
Print Assumptions C09_srvclose_cancels.

(* (3) cancelled once, the cleanup runs to completion.
   FULL (false):  forall ops t c, In t (tasks (run_ops ops init)) -> tbeh t = Honour c ->
                   ncancel t <= 1 /\ nhit t = 0 /\ (ph t = Finished -> ncancel t = 1 -> cleanup_done t = true) *)
Theorem C09_cancelled_once_refuted :
  exists ops t c, In t (tasks (run_ops ops init)) /\ tbeh t = Honour c /\
                  ncancel t = 2 /\ nhit t = 1 /\ ph t = Finished /\ cleanup_done t = false.
Proof. exact cancelled_once_refuted. Qed.
Print Assumptions C09_cancelled_once_refuted.

(* PARTIAL: unless a cancel() call reached the task while it was inside its cleanup (ghost `late`) *)
Theorem C09_cancelled_once_partial : forall ops t c,
  In t (tasks (run_ops ops init)) -> tbeh t = Honour c -> late t = false ->
  ncancel t <= 1 /\ nhit t = 0 /\ (ph t = Finished -> ncancel t = 1 -> cleanup_done t = true).
Proof.
  intros ops t c Ht B L. pose proof (ti_honour t (reachable_task_inv ops t Ht)) as H.
  unfold honour_inv in H. rewrite B in H. destruct (ph t); fields.
Qed.
Print Assumptions C09_cancelled_once_partial.

(* ... in particular when no cause arrives while some handler is in its cleanup *)
Theorem C09_cancelled_once_calm : forall ops t c,
  calm ops init -> In t (tasks (run_ops ops init)) -> tbeh t = Honour c ->
  ncancel t <= 1 /\ nhit t = 0 /\ (ph t = Finished -> ncancel t = 1 -> cleanup_done t = true).
Proof.
  intros ops t c C Ht B. apply (C09_cancelled_once_partial ops t c Ht B).
  apply (proj1 (Forall_forall _ _) (calm_no_late ops init C (Forall_nil _))), Ht.
Qed.
Print Assumptions C09_cancelled_once_calm.

(* which second cause lands in the cleanup: all of them except RST followed by Server.close() and the
   pairs whose second member cannot happen (finite domain 5 x 5, closed by computation) *)
Theorem C09_pair_table : forall a b, pair_lands a b = pair_expected a b.
Proof. intros a b; destruct a, b; vm_compute; reflexivity. Qed.
Print Assumptions C09_pair_table.

(* (4) release *)
Theorem C09_released_at_most_once : forall ops t,
  In t (tasks (run_ops ops init)) ->
  nrel t <= 1 /\ (registered t = true <-> nrel t = 0) /\
  (unfinished t = true -> registered t = true) /\
  (ph t = Finished -> cb_pending t = false -> registered t = false /\ nrel t = 1).
Proof.
  intros ops t Ht. destruct (reachable_task_inv ops t Ht) as [h1 h2 h3 _ _ _]. open_task t.
  destruct xrg, xp; cbn in *; fields.
Qed.
Print Assumptions C09_released_at_most_once.

(* a finished task -- including one that never ran -- has released its stream exactly once after the
   next callback of the loop *)
Theorem C09_finished_is_released : forall ops c i t,
  find_task c i (tasks (run_ops ops init)) = Some t -> unfinished t = false ->
  exists t', find_task c i (tasks (step (run_ops ops init) (Run c i))) = Some t' /\
             registered t' = false /\ nrel t' = 1 /\ cb_pending t' = false.
Proof. exact finished_is_released. Qed.
Print Assumptions C09_finished_is_released.

(* (5) Server.wait_closed *)
Theorem C09_wait_closed_safe : forall ops,
  wst (run_ops ops init) = WDone -> forall t, In t (tasks (run_ops ops init)) -> ph t = Finished.
Proof.
  intros ops W t Ht. pose proof (proj1 (Forall_forall _ _) (inv_owed _ (reachable_inv ops)) t Ht) as H.
  rewrite W in H. cbn in H. unfold unfinished in H. destruct (ph t); try discriminate. reflexivity.
Qed.
Print Assumptions C09_wait_closed_safe.

(* neither GC (Handler.__gc_collect__ on every handler_gc_interval-th accept, Server.__gc_collect__ on every
   server_gc_interval-th accepted connection) ever loses a live handler: an unfinished task is always in _tasks or _cancelled, its
   Handler is always in Server._handlers, and once the connection is closed the task is in _cancelled *)
Theorem C09_handlers_kept : forall ops t,
  In t (tasks (run_ops ops init)) -> unfinished t = true ->
  (in_tasks t = true \/ in_cancelled t = true) /\
  exists k, conn_at (run_ops ops init) (tc t) = Some k /\ in_handlers k = true /\
            (proc_open k = false -> in_cancelled t = true).
Proof.
  intros ops t Ht U. split; [apply (ti_sets t (reachable_task_inv ops t Ht) U)|].
  destruct (reachable_home ops t Ht) as (k & Ek & Hk). exists k. split; auto.
Qed.
Print Assumptions C09_handlers_kept.

(* PARTIAL (needs: every connection is gone -- the Python 3.12 condition of asyncio.Server.wait_closed) *)
Theorem C09_wait_closed_live : forall s,
  wait_started (wst s) = true ->
  latch (srv s) = true -> listening (srv s) = false -> all_lost (conns s) = true ->
  (forall t, In t (tasks s) -> unfinished t = false) ->
  wst (run_ops [RunW; RunW; RunW] s) = WDone.
Proof. exact wait_closed_live. Qed.
Print Assumptions C09_wait_closed_live.

(* FULL (false):  close() called /\ every handler finished -> wait_closed() returns.
   Refuted by an idle connection that stays open (Server.close() does not close transports) *)
Theorem C09_wait_closed_returns_refuted :
  exists ops, let s := run_ops ops init in
    latch (srv s) = true /\ (forall t, In t (tasks s) -> ph t = Finished) /\
    forall n, wst (run_ops (repeat RunW n) s) <> WDone.
Proof. exact wait_closed_returns_refuted. Qed.
Print Assumptions C09_wait_closed_returns_refuted.

(* (5b) one wrapper, several tasks.
   A task is in Wrapper._tasks exactly from its own successful __enter__ to its own __exit__, whatever the
   other tasks of the call do and in whatever order they leave; so Wrapper.cancel reaches exactly the tasks
   that are blocked inside a with-block at that moment *)
Theorem C09_wrapper_members_exact : forall ops t, wmem t (wtasks (wrun ops)) = wspec t ops.
Proof. intros ops t. symmetry. exact (f_equal snd (wrun_spec t ops (mkWrap [] false [] []))). Qed.
Print Assumptions C09_wrapper_members_exact.

Theorem C09_wrapper_cancel_reaches : forall ops t,
  wmem t (wcancelled (wrun (ops ++ [WCancel]))) = wmem t (wcancelled (wrun ops)) || wspec t ops.
Proof.
  intros ops t. rewrite <- C09_wrapper_members_exact. unfold wrun. rewrite fold_left_app. cbn. apply existsb_app.
Qed.
Print Assumptions C09_wrapper_cancel_reaches.

(* (6) graceful_exit *)
Theorem C09_graceful_first_signal : forall l sig ex,
  forallb g_started l = true -> exit_handler sig (mkGS l false ex) = mkGS (map gclose l) true ex.
Proof. exact graceful_first_signal. Qed.
Print Assumptions C09_graceful_first_signal.

Theorem C09_graceful_second_signal : forall l sig ex,
  exit_handler sig (mkGS l true ex) = mkGS l true ((128 + sig) :: ex).
Proof. exact graceful_second_signal. Qed.
Print Assumptions C09_graceful_second_signal.

Theorem C09_graceful_not_started : forall l sig ex,
  forallb g_started l = false ->
  exit_handler sig (mkGS l false ex) =
  mkGS (map (fun g => if g_started g then gclose g else g) l) false ((128 + sig) :: ex).
Proof. intros l sig ex H. unfold exit_handler. cbn. rewrite first_stage_spec, H. reflexivity. Qed.
Print Assumptions C09_graceful_not_started.

Theorem C09_graceful_sequence : forall l sig sigs,
  forallb g_started l = true ->
  fold_left (fun st sg => exit_handler sg st) (sig :: sigs) (mkGS l false []) =
  mkGS (map gclose l) true (rev (map (fun sg => 128 + sg) sigs)).
Proof. exact graceful_sequence. Qed.
Print Assumptions C09_graceful_sequence.
