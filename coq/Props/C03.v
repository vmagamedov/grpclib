(* C03 -- The server always ends a stream with exactly one well-formed, truthful response.
   This file holds only the property theorems; each is closed by a lemma proved in Proofs/C03Proofs.v and
   followed by Print Assumptions.  Non-vacuity: Proofs/C03Examples.v.

   run_call known hs e p  is one server-side call: request header list hs (as HTTP/2 delivers it), the
   server's mapping keys `known`, the environment e (cardinality, buffered request body, END_STREAM, client
   RST_STREAM / Server.close() / deadline and when they strike) and the handler program p (ANY length).
   r_out = the frames on the stream; r_end = how the handler coroutine ended; r_pre = the stream flags then. *)
From Coq Require Import String ZArith List Bool.
From GV Require Import Lib.Str Gen.Facts Gen.FactsC03 Model.Base64 Model.Metadata Model.ServerCall
  Proofs.C03Proofs Proofs.C03Examples Gen.FactsC03Probes.
Import ListNotations.
Open Scope Z_scope.

(* (1) safety -- HEADERS(:status 200, content-type) before DATA, at most one terminal (trailers / RST_STREAM),
   nothing after it except one RST_STREAM after trailers: for every request, program, environment, ending *)
Theorem C03_well_formed_always :
  forall known hs e p, well_formed (r_out (run_call known hs e p)) = true.
Proof. exact well_formed_always. Qed.
Print Assumptions C03_well_formed_always.

(* (1') exactly one terminal.  FULL STATEMENT (false, see the two _refuted theorems):
       forall known hs e p, let r := run_call known hs e p in
         r_end r <> KHang -> reset_kind (r_end r) = false -> accepted (r_out r) = true.
   Proved: the same with the one silent ending excluded -- a BaseException reaching __aexit__ (D4) when the
   handler itself sent no terminal (silent_exit is exactly that). *)
Theorem C03_exactly_one_terminal_partial :
  forall known hs e p, let r := run_call known hs e p in
  r_end r <> KHang -> reset_kind (r_end r) = false ->
  silent_exit (e_card e) (r_pre r) (exit_exn (r_end r)) = false ->
  accepted (r_out r) = true.
Proof. exact exactly_one_terminal_partial. Qed.
Print Assumptions C03_exactly_one_terminal_partial.

(* D4, handler raises a BaseException: HEADERS DATA, then nothing *)
Theorem C03_exactly_one_terminal_refuted :
  exists known hs e p, let r := run_call known hs e p in
    r_end r <> KHang /\ reset_kind (r_end r) = false /\ accepted (r_out r) = false /\
    exit_exn (r_end r) = Some EBase /\ r_out r = [resp_headers; FData].
Proof. exact exactly_one_terminal_refuted. Qed.
Print Assumptions C03_exactly_one_terminal_refuted.

(* D4, handler cancelled by Server.close() *)
Theorem C03_cancelled_by_close_refuted :
  exists known hs e p, let r := run_call known hs e p in
    r_end r = KCancelled CClose /\ accepted (r_out r) = false /\ r_out r = [resp_headers; FData].
Proof. exact cancelled_by_close_refuted. Qed.
Print Assumptions C03_cancelled_by_close_refuted.

(* repaired defect D42 -- a unary-reply handler raises GRPCError(Status.OK) without having sent a message:
   answered UNKNOWN "Internal Server Error" with exactly one terminal *)
Theorem C03_grpc_ok_without_message_status :
  forall known hs e p t m, validate (e_codec e) known hs = VAccept t -> t <> TExpired ->
  let r := run_call known hs e p in
  exit_exn (r_end r) = Some (EGRPC status_ok m) -> reset_kind (r_end r) = false ->
  trail_done (r_pre r) = false -> cancel_done (r_pre r) = false ->
  server_streaming (e_card e) = false -> msg_done (r_pre r) = false ->
  final_status (r_out r) = Some (2, Some internal_msg) /\ accepted (r_out r) = true.
Proof. exact grpc_ok_without_message_status. Qed.
Print Assumptions C03_grpc_ok_without_message_status.

(* (2a) OK only if the handler returned normally or said OK itself (explicit OK trailers / GRPCError(OK));
   unary + OK => exactly one message *)
Theorem C03_ok_only_if_normal :
  forall known hs e p m, let r := run_call known hs e p in
  final_status (r_out r) = Some (status_ok, m) ->
  (returned_normally (r_end r) = true \/
   (exists m', In (SendTrailing status_ok m' false) (p_ops p)) \/
   (exists m', exit_exn (r_end r) = Some (EGRPC status_ok m'))) /\
  (server_streaming (e_card e) = false -> count_data (r_out r) = 1%nat).
Proof. exact ok_only_if_normal. Qed.
Print Assumptions C03_ok_only_if_normal.

(* (2b) the status sent at exit is the function implicit_status of (cardinality, message sent, ending) *)
Theorem C03_status_at_exit :
  forall known hs e p t, validate (e_codec e) known hs = VAccept t -> t <> TExpired ->
  let r := run_call known hs e p in
  r_end r <> KHang -> reset_kind (r_end r) = false ->
  trail_done (r_pre r) = false -> cancel_done (r_pre r) = false ->
  final_status (r_out r) = implicit_status (e_card e) (r_pre r) (exit_exn (r_end r)).
Proof. exact status_at_exit. Qed.
Print Assumptions C03_status_at_exit.

(* normal return: OK, or UNKNOWN "Internal Server Error" for a unary reply without its message *)
Theorem C03_return_status :
  forall known hs e p t, validate (e_codec e) known hs = VAccept t -> t <> TExpired ->
  let r := run_call known hs e p in
  returned_normally (r_end r) = true -> trail_done (r_pre r) = false -> cancel_done (r_pre r) = false ->
  final_status (r_out r) =
    if server_streaming (e_card e) || msg_done (r_pre r) then Some (0, None) else Some (2, Some internal_msg).
Proof. exact return_status. Qed.
Print Assumptions C03_return_status.

(* raise GRPCError(st, m): exactly (st, m) on the wire *)
Theorem C03_grpc_error_status :
  forall known hs e p t st m, validate (e_codec e) known hs = VAccept t -> t <> TExpired ->
  let r := run_call known hs e p in
  exit_exn (r_end r) = Some (EGRPC st m) -> reset_kind (r_end r) = false ->
  trail_done (r_pre r) = false -> cancel_done (r_pre r) = false ->
  (st = status_ok -> server_streaming (e_card e) = true \/ msg_done (r_pre r) = true) ->
  final_status (r_out r) = Some (st, m).
Proof. exact grpc_error_status. Qed.
Print Assumptions C03_grpc_error_status.

(* any other Exception: UNKNOWN *)
Theorem C03_exception_status :
  forall known hs e p t, validate (e_codec e) known hs = VAccept t -> t <> TExpired ->
  let r := run_call known hs e p in
  exit_exn (r_end r) = Some EExc -> reset_kind (r_end r) = false ->
  trail_done (r_pre r) = false -> cancel_done (r_pre r) = false ->
  final_status (r_out r) = Some (2, Some internal_msg).
Proof.
  intros known hs e p t Hv Hne r Hx Hr Ht Hc. exact (proj1 (exception_at_exit _ _ _ _ _ Hv Hne _ Hx Hr Ht Hc)).
Qed.
Print Assumptions C03_exception_status.

(* ... in particular the handler's OWN asyncio.TimeoutError / StreamTerminatedError / ProtocolError, whatever
   deadline the request carries (t is arbitrary), as long as that deadline has not fired *)
Theorem C03_own_exception_is_unknown :
  forall known hs e p t k, validate (e_codec e) known hs = VAccept t -> t <> TExpired ->
  let r := run_call known hs e p in
  (r_end r = KFin (RaiseException k) \/ r_end r = KSwallowed CClose (RaiseException k)) ->
  trail_done (r_pre r) = false -> cancel_done (r_pre r) = false ->
  final_status (r_out r) = Some (2, Some internal_msg) /\ accepted (r_out r) = true.
Proof. exact own_exception_is_unknown. Qed.
Print Assumptions C03_own_exception_is_unknown.

(* the deadline: DEADLINE_EXCEEDED and exactly one terminal, honoured or swallowed-then-anything (even a
   BaseException: Wrapper.__exit__ replaces it) *)
Theorem C03_deadline_status :
  forall known hs e p t, validate (e_codec e) known hs = VAccept t -> t <> TExpired ->
  let r := run_call known hs e p in
  deadline_kind (r_end r) = true -> trail_done (r_pre r) = false -> cancel_done (r_pre r) = false ->
  final_status (r_out r) = Some (4, None) /\ accepted (r_out r) = true.
Proof. exact deadline_status. Qed.
Print Assumptions C03_deadline_status.

(* ... and a deadline that has expired on arrival (repaired defect D7): trailers-only DEADLINE_EXCEEDED *)
Theorem C03_expired_on_arrival :
  forall known hs e p, validate (e_codec e) known hs = VAccept TExpired ->
  let r := run_call known hs e p in
  r_out r = FHeaders 200 true (Some 4) None true :: (if e_eof e then [] else [FRst]) /\
  r_end r = KNotRun /\ r_results r = [].
Proof. exact expired_out. Qed.
Print Assumptions C03_expired_on_arrival.

(* (2c) trailers sent by the handler itself stand, whatever it raises afterwards *)
Theorem C03_explicit_status_stands :
  forall known hs e p t, validate (e_codec e) known hs = VAccept t -> t <> TExpired ->
  let r := run_call known hs e p in
  trail_done (r_pre r) = true ->
  exists st m, In (SendTrailing st m false) (p_ops p) /\ final_status (r_out r) = Some (st, m).
Proof. exact explicit_status_stands. Qed.
Print Assumptions C03_explicit_status_stands.

(* a unary reply never carries two messages *)
Theorem C03_unary_at_most_one_message :
  forall known hs e p, server_streaming (e_card e) = false ->
  (count_data (r_out (run_call known hs e p)) <= 1)%nat.
Proof. exact unary_at_most_one_message. Qed.
Print Assumptions C03_unary_at_most_one_message.

(* (3) every refused request is answered: one HEADERS+END_STREAM error response (+ RST_STREAM while the
   client has not ended its side), no message, the handler is not called *)
Theorem C03_unacceptable_rejected :
  forall known hs e p i h gs m, validate (e_codec e) known hs = VAbort i h gs m ->
  let r := run_call known hs e p in
  r_out r = FHeaders h false gs m true :: (if e_eof e then [] else [FRst]) /\
  accepted (r_out r) = true /\ error_response h gs = true /\ count_data (r_out r) = 0%nat /\
  r_results r = [] /\ r_end r = KNotRun.
Proof. exact unacceptable_rejected. Qed.
Print Assumptions C03_unacceptable_rejected.

(* which requests are refused, with what: the checks of request_handler in source order (the table is
   regenerated from /repo): 405; 415 UNKNOWN x2; 400 UNKNOWN; UNIMPLEMENTED; UNKNOWN timeout; UNKNOWN metadata *)
Theorem C03_validation_order :
  forall cs known hs, validate cs known hs = validate_spec cs known hs.
Proof. exact validate_is_spec. Qed.
Print Assumptions C03_validation_order.

(* acceptance means every check passed *)
Theorem C03_accepted_request_is_grpc :
  forall cs known hs t, validate cs known hs = VAccept t ->
  opt_is (hget (s2z ":method") hs) (s2z "POST") = true /\
  (exists v, hget (s2z "content-type") hs = Some v /\ content_type_ok cs v = true) /\
  opt_is (hget (s2z "te") hs) (s2z "trailers") = true /\
  (exists q, hget (s2z ":path") hs = Some q /\ mem_str q known = true) /\
  timeout_class hs = t /\ t <> TInvalid /\ metadata_ok hs = true.
Proof. exact accepted_request_is_grpc. Qed.
Print Assumptions C03_accepted_request_is_grpc.

(* classification on all strings: a server whose codec has content subtype cs accepts `application/grpc+cs`,
   and -- only when cs is the protocol default 'proto' -- the bare `application/grpc` (and `application/grpc+`) *)
Theorem C03_content_type_partition :
  forall cs v, cs <> [] ->
  (content_type_ok cs v = true <->
   v = content_type_value cs \/
   (cs = proto_subtype /\ (v = s2z "application/grpc" \/ v = s2z "application/grpc+"))).
Proof. exact content_type_partition. Qed.
Print Assumptions C03_content_type_partition.

(* the bare application/grpc means +proto: a server with any other codec refuses it *)
Theorem C03_bare_content_type_needs_proto :
  forall cs, cs <> [] -> cs <> proto_subtype -> content_type_ok cs (s2z "application/grpc") = false.
Proof. exact bare_content_type_needs_proto. Qed.
Print Assumptions C03_bare_content_type_needs_proto.

(* grpc-timeout values: 1..8 ASCII digits followed by one unit letter, nothing else *)
Theorem C03_timeout_grammar :
  forall v z, decode_timeout_zero v = Some z ->
  exists ds u, v = ds ++ [u] /\ (1 <= length ds <= 8)%nat /\ forallb is_digit ds = true /\
               In u (s2z "HMSmun") /\ (z = true <-> forallb (fun c => c =? 48) ds = true).
Proof. exact timeout_grammar. Qed.
Print Assumptions C03_timeout_grammar.

(* a refused API call emits nothing and changes no flag *)
Theorem C03_refusal_is_silent :
  forall c s, (msg_done s = true -> init_done s = true) ->
  (forall s' out, send_initial s = (s', out, RRefused) -> s' = s /\ out = []) /\
  (forall s' out, send_message c s = (s', out, RRefused) -> s' = s /\ out = []) /\
  (forall st m s' out, send_trailing c s st m = (s', out, RRefused) -> s' = s /\ out = []) /\
  (forall s' out, cancel s = (s', out, RRefused) -> s' = s /\ out = []).
Proof. exact refusal_is_silent. Qed.
Print Assumptions C03_refusal_is_silent.

(* a call that fails part-way (invalid user metadata, refused message, raising listener) sets no flag and
   sends nothing terminal, so the exit path still answers (the programs of theorems (1)-(2) include these calls
   and the paused transport: SendInitial/SendMessage/SendTrailing carry a `fails` flag, Pause is an op) *)
Theorem C03_partway_failure_is_harmless :
  forall c s,
  (forall s' out r, do_send_initial s true = PDone s' out r -> s' = s /\ out = [] /\ r <> ROk) /\
  (forall st m s' out r, do_send_trailing c s st m true = PDone s' out r -> s' = s /\ out = [] /\ r <> ROk) /\
  (forall s' out r, do_send_message c s true = PDone s' out r ->
     msg_done s' = msg_done s /\ trail_done s' = trail_done s /\ cancel_done s' = cancel_done s /\
     count_data out = 0%nat /\ final_status out = None /\ r <> ROk).
Proof. exact partway_failure_is_harmless. Qed.
Print Assumptions C03_partway_failure_is_harmless.

(* the constants the model is instantiated with are the ones in /repo now *)
Theorem C03_source_facts :
  aexit_exception = (2, Some internal_msg) /\ aexit_unary_missing = (2, Some internal_msg) /\
  aexit_normal = (0, None) /\ deadline_status_failed = 4 /\ deadline_status_cancelled = 4 /\ status_ok = 0 /\
  aexit_grpc_ok_unary_as_exception = true /\ aexit_base_propagates = true.
Proof. exact aexit_constants. Qed.
Print Assumptions C03_source_facts.

(* ... and the model agrees with what the repository DOES on the regenerated probe programs (refusal checks,
   emitted frames per state, exit path): behaviour is compared, not source text *)
Theorem C03_source_probes_agree : map golden_run golden_in = golden_out /\ (100 <= length golden_in)%nat.
Proof. exact (conj golden_probes_agree golden_probes_nonempty). Qed.
Print Assumptions C03_source_probes_agree.
