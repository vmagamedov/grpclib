(* C14 -- Status code, message and details reach the caller unchanged.
   This file holds only the property theorems; each is closed by `exact` of a lemma proved in
   Proofs/C14Proofs.v, or derived in a few lines from lemmas proved there, and followed by
   Print Assumptions.  Non-vacuity: Proofs/C14Examples.v. *)
From Coq Require Import ZArith List Bool String.
From GV Require Import Lib.Str Gen.Facts Model.Base64 Model.Metadata Model.Utf8 Model.Percent
  Model.StatusWire Proofs.C14Proofs Proofs.C14Examples.
Import ListNotations.
Open Scope Z_scope.

(* (1) UTF-8: every string of scalar values (all four length classes) encodes to bytes that
   CPython's decoder maps back to the same string *)
Theorem C14_utf8_roundtrip :
  forall s, scalars_ok s = true ->
  exists b, utf8_encode s = Some b /\ bytes_ok b = true /\ utf8_decode_replace b = s.
Proof.
  intros s Hs. rewrite utf8_encode_eq, Hs. eexists. split; [reflexivity|].
  apply utf8_roundtrip, Hs.
Qed.
Print Assumptions C14_utf8_roundtrip.

(* (2) decode_grpc_message (encode_grpc_message s) = s for EVERY message without lone surrogates:
   '%', CR/LF, NUL, non-BMP, text that looks like an escape, the empty string *)
Theorem C14_message_roundtrip :
  forall s, scalars_ok s = true ->
  exists e, encode_grpc_message s = Some e /\ decode_grpc_message e = s.
Proof. exact message_roundtrip. Qed.
Print Assumptions C14_message_roundtrip.

(* (3) the grpc-message on the wire: printable ASCII only (0x20..0x7E), and '%' only as the
   introducer of an escape with two upper-case hexadecimal digits *)
Theorem C14_message_wire_safe :
  forall s e, encode_grpc_message s = Some e ->
  forallb printable e = true /\ well_escaped e = true.
Proof. exact message_wire_safe. Qed.
Print Assumptions C14_message_wire_safe.

(* (3') the error branch of the real encoder (UnicodeEncodeError) is taken exactly by the
   strings the property excludes: those holding a lone surrogate *)
Theorem C14_encode_error_iff_surrogate :
  forall s, encode_grpc_message s = None <-> scalars_ok s = false.
Proof. intros s. rewrite encode_msg_eq. destruct (scalars_ok s); split; congruence. Qed.
Print Assumptions C14_encode_error_iff_surrogate.

(* (4) status, message and details bytes survive trailers + client parse: every member of Status
   except OK, message None / "" / any scalar string, details None / any bytes, with or without a
   status-details codec on either side.
   FULL STATEMENT (false of the code, see C14_status_roundtrip_all_refuted): the same without
   `st <> status_ok`. *)
Theorem C14_status_roundtrip_partial :
  forall sc cc st msg det,
  In st status_values -> st <> status_ok -> msg_valid msg = true -> det_valid det = true ->
  exists hs, status_trailers sc st msg det = Some hs /\
             process_grpc_status cc hs = CStatus st msg (if sc && cc then det else None).
Proof. exact status_roundtrip. Qed.
Print Assumptions C14_status_roundtrip_partial.

(* (4-refuted) for status OK the client keeps neither message nor details: witness
   (OK, "x", None), replayed on the implementation by the driver *)
Theorem C14_status_roundtrip_all_refuted :
  exists st msg det,
    In st status_values /\ msg_valid msg = true /\ det_valid det = true /\
    exists hs, status_trailers true st msg det = Some hs /\
               process_grpc_status true hs <> CStatus st msg det.
Proof. exact status_roundtrip_all_refuted. Qed.
Print Assumptions C14_status_roundtrip_all_refuted.

(* (4-OK) what does happen for OK: no GRPCError at all, nothing carried *)
Theorem C14_ok_status_carries_nothing :
  forall sc cc msg det, msg_valid msg = true ->
  In status_ok status_values /\
  exists hs, status_trailers sc status_ok msg det = Some hs /\
             process_grpc_status cc hs = CStatus status_ok None None /\
             raises_grpc_error (CStatus status_ok None None) = false.
Proof. exact ok_status_carries_nothing. Qed.
Print Assumptions C14_ok_status_carries_nothing.

(* (5) the same round trip inside a complete (trailers-only) block: protocol headers in front,
   the user's trailing metadata as encode_metadata emits it (C13) behind *)
Theorem C14_status_roundtrip_in_block :
  forall st msg det pre md hmd,
  In st status_values -> st <> status_ok -> msg_valid msg = true -> det_valid det = true ->
  status_free pre = true -> md_typed md = true -> encode_metadata md = Ok hmd ->
  exists hs, status_trailers true st msg det = Some hs /\
             process_grpc_status true (pre ++ hs ++ hmd) = CStatus st msg det.
Proof.
  intros st msg det pre md hmd Hin Hnok Hmsg Hdet Hpre Htyped Henc.
  destruct (C14_status_roundtrip_partial true true st msg det Hin Hnok Hmsg Hdet) as (hs & Hs & Hp).
  exists hs. split; [exact Hs|].
  rewrite process_around; [exact Hp | exact Hpre | exact (metadata_status_free md hmd Htyped Henc)].
Qed.
Print Assumptions C14_status_roundtrip_in_block.

(* (6) ... and through the receiving h2 (ASCII header decoding), which never refuses what the
   server produced *)
Theorem C14_status_roundtrip_through_h2 :
  forall st msg det,
  In st status_values -> st <> status_ok -> msg_valid msg = true -> det_valid det = true ->
  exists hs, status_trailers true st msg det = Some hs /\
             client_receive true hs = RStatus (CStatus st msg det).
Proof.
  intros st msg det Hin Hnok Hmsg Hdet.
  destruct (C14_status_roundtrip_partial true true st msg det Hin Hnok Hmsg Hdet) as (hs & Hs & Hp).
  exists hs. split; [exact Hs|].
  rewrite receive_total_partial, Hp by exact (status_trailers_ascii true st msg det hs Hin Hdet Hs).
  reflexivity.
Qed.
Print Assumptions C14_status_roundtrip_through_h2.

(* (7) a lone surrogate in the message: the report never reaches the wire (error branch) *)
Theorem C14_surrogate_message_error :
  forall sc st m det, scalars_ok m = false -> status_trailers sc st (Some m) det = None.
Proof.
  intros sc st m det H. rewrite status_trailers_shape. cbn [msg_valid]. rewrite H. reflexivity.
Qed.
Print Assumptions C14_surrogate_message_error.

(* (8) decoding never fails.  The model decoder is a total function BY CONSTRUCTION (this clause
   is carried by the correspondence on malformed inputs); what is proved is that whatever ASCII
   text arrives, its result is a valid str (scalar values only) ... *)
Theorem C14_decode_yields_valid_str :
  forall v, ascii_ok v = true -> scalars_ok (decode_grpc_message v) = true.
Proof. exact decode_yields_valid_str. Qed.
Print Assumptions C14_decode_yields_valid_str.

(* ... for every byte string CPython's UTF-8 decoder with errors='replace' returns scalar values ... *)
Theorem C14_utf8_decode_total_valid :
  forall l, bytes_ok l = true -> scalars_ok (utf8_decode_replace l) = true.
Proof. exact dec_scalars. Qed.
Print Assumptions C14_utf8_decode_total_valid.

(* ... every trailers block of ASCII bytes gets an answer from the client, whose message (if any)
   is a valid str.
   FULL STATEMENT (false of the code, see C14_receive_total_refuted): for every block of bytes. *)
Theorem C14_receive_total_partial :
  forall cc raw, headers_ascii raw = true ->
  client_receive cc raw = RStatus (process_grpc_status cc raw).
Proof. exact receive_total_partial. Qed.
Print Assumptions C14_receive_total_partial.

Theorem C14_received_message_valid :
  forall cc raw st m det,
  client_receive cc raw = RStatus (CStatus st (Some m) det) -> scalars_ok m = true.
Proof. exact received_message_valid. Qed.
Print Assumptions C14_received_message_valid.

(* (8-refuted) a grpc-message holding a raw non-ASCII byte (an unescaped UTF-8 message) is not
   decoded at all: h2 raises UnicodeDecodeError, grpclib closes the connection and the call ends
   with StreamTerminatedError instead of the GRPCError of the status sent: witness replayed by the
   driver *)
Theorem C14_receive_total_refuted :
  exists raw, forallb (fun kv => bytes_ok (fst kv) && bytes_ok (snd kv)) raw = true /\
              client_receive true raw = RConnError.
Proof. exact receive_total_refuted. Qed.
Print Assumptions C14_receive_total_refuted.

(* (9) the tables of the model are the ones in the source (Gen.Facts is regenerated from /repo
   on every run): _UNQUOTED = 0x20..0x7E without '%', 17 Status members 0..16 with OK = 0, the
   details key *)
Theorem C14_source_facts :
  unquoted = map Z.of_nat (seq 32 5) ++ map Z.of_nat (seq 38 89) /\
  List.length status_members = 17%nat /\ status_ok = 0 /\
  status_values = map Z.of_nat (seq 0 17) /\
  status_details_key = s2z "grpc-status-details-bin".
Proof. vm_compute. repeat split; reflexivity. Qed.
Print Assumptions C14_source_facts.
