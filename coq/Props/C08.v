(* C08 -- Receive credit is returned exactly once, only as data is consumed or released.
   This file holds only the property theorems; each is closed by a lemma proved in Proofs/C08Proofs.v, or derived
   from one in a line or two, and followed by Print Assumptions.  The model (Model/RecvLedger.v) is a transcription of
   Buffer / Connection.ack / EventsProcessor.register.release_stream / process_data_received /
   H2Protocol.connection_made / the Configuration window validators; `run init h = (s, o)` is the state and the
   output list (ORecv = flow-controlled bytes received, OAck = acknowledge_received_data calls, ODrop = ghost
   marker of a release on a closing connection) after the history h of events
   Open / Data / EndStream / Read / Wake / Cancel / Release / Close / Pause / Resume, in ANY order and on any
   number of streams -- including reads on a buffer AFTER its stream was released and pauses of the transport
   at any point.  `lookup_live` = EventsProcessor.streams.get; `lookup` also finds released buffers. *)
From Coq Require Import ZArith List Bool.
From GV Require Import Gen.Facts Model.RecvLedger Proofs.C08Proofs.
From GV Require Proofs.C08Examples.   (* non-vacuity examples, checked with the theorems *)
Import ListNotations.
Open Scope Z_scope.

(* (1) never over-credited: after every history (every prefix of every history is a history), for every
   stream and for the connection; needs no hypothesis beyond "sizes are lengths" *)
Theorem C08_never_overcredited :
  forall h s o, forallb event_ok h = true -> run init h = (s, o) ->
  (forall x, credited x o <= received x o) /\ credited_conn o <= received_conn o.
Proof.
  intros h s o Hev H. split; [intros x; exact (never_overcredited_sel (fun k => k =? x) _ _ _ Hev H)|].
  exact (never_overcredited_sel (fun _ => true) _ _ _ Hev H).
Qed.
Print Assumptions C08_never_overcredited.

(* (2) conservation: every received byte is either credited, or still queued in a REGISTERED buffer (held), or
   left in a released buffer (forfeited: only a release on a closing connection leaves any, see (4''), (6')) *)
Theorem C08_conservation :
  forall h s o, legal init h = true -> run init h = (s, o) ->
  (forall x, received x o = credited x o + held x s + forfeited x s) /\
  received_conn o = credited_conn o + held_conn s + forfeited_conn s.
Proof. exact conservation. Qed.
Print Assumptions C08_conservation.

(* `legal` holds whenever the stream ids opened are pairwise distinct, which h2 guarantees *)
Theorem C08_distinct_ids_legal :
  forall h, NoDup (opens h) -> legal init h = true.
Proof. intros h H. apply nodup_opens_legal; [exact H|]. intros x _. reflexivity. Qed.
Print Assumptions C08_distinct_ids_legal.

(* (3) back-pressure: a read(size) on a stream whose queue is p ++ r credits exactly the items of p, where p is
   the MINIMAL prefix it needs -- before every popped item the bytes already acknowledged were still short of
   `size` -- and it stops as soon as it has enough, or hits the EOF marker, or the queue is empty (then it
   blocks); the items of r stay queued and un-credited, and no other stream is credited.  The buffer may be a
   registered or a released one (`lookup`).  Stated for a live connection (the proof does not use that): on a
   closing one Connection.ack still calls acknowledge_received_data, but its flush() touches the deleted
   Connection._transport whenever h2 has bytes pending, so a read may die with AttributeError after its first
   acknowledgement; whether it does depends on h2's outbound queue, which is not modelled.  The ledger theorems
   are not affected by where such a read stops *)
Theorem C08_read_credits_minimal_prefix :
  forall s sid size b s' o,
  closing s = false -> lookup sid (reg s) = Some b -> bpend b = None -> 0 < size ->
  step s (Read sid size) = (s', o) ->
  exists p r b', bq b = p ++ r /\ lookup sid (reg s') = Some b' /\ bq b' = r /\ brel b' = brel b /\
    credited sid o = qsum p /\ credited_conn o = qsum p /\ (forall x, x <> sid -> credited x o = 0) /\
    queued sid s' = qsum r /\
    (forall p1 it p2, p = p1 ++ it :: p2 -> backed b + lsum p1 < size) /\
    (r = [] \/ size <= backed b + lsum p \/ exists p0 m, p = p0 ++ [m] /\ it_ack m = 0).
Proof.
  intros s sid size b s' o _ Hl Hp Hs H. destruct (with_buf_some _ _ _ _ _ _ _ Hl H) as (b' & Hb & ->).
  exact (reads_effect _ _ _ _ _ _ (proj2 (buf_read_spec _ _ _ _ _ Hb) Hp Hs)).
Qed.
Print Assumptions C08_read_credits_minimal_prefix.

(* (3') the same when a read that was blocked on the empty queue is resumed *)
Theorem C08_resumed_read_credits_minimal_prefix :
  forall s sid size b s' o,
  closing s = false -> lookup sid (reg s) = Some b -> bpend b = Some size -> bq b <> [] ->
  step s (Wake sid) = (s', o) ->
  exists p r b', bq b = p ++ r /\ lookup sid (reg s') = Some b' /\ bq b' = r /\ brel b' = brel b /\
    credited sid o = qsum p /\ credited_conn o = qsum p /\ (forall x, x <> sid -> credited x o = 0) /\
    queued sid s' = qsum r /\
    (forall p1 it p2, p = p1 ++ it :: p2 -> backed b + lsum p1 < size) /\
    (r = [] \/ size <= backed b + lsum p \/ exists p0 m, p = p0 ++ [m] /\ it_ack m = 0).
Proof.
  intros s sid size b s' o _ Hl Hp Hne H. destruct (with_buf_some _ _ _ _ _ _ _ Hl H) as (b' & Hb & ->).
  exact (reads_effect _ _ _ _ _ _ (proj2 (buf_wake_spec _ _ _ _ Hb) _ Hp Hne)).
Qed.
Print Assumptions C08_resumed_read_credits_minimal_prefix.

(* (3'') data arriving for an active (registered) call is queued, not credited *)
Theorem C08_data_buffered_not_credited :
  forall s sid n pad b s' o,
  lookup_live sid (reg s) = Some b -> step s (Data sid n pad) = (s', o) ->
  (forall x, credited x o = 0) /\ credited_conn o = 0 /\ received sid o = fcl n pad /\
  held sid s' = held sid s + fcl n pad.
Proof. exact data_registered_not_credited. Qed.
Print Assumptions C08_data_buffered_not_credited.

(* (4) release on a live connection credits everything that is still queued, for that stream only, unregisters
   it and leaves its buffer EMPTY (unacked_size() drains the queue) *)
Theorem C08_release_credits_rest :
  forall s sid b s' o,
  lookup_live sid (reg s) = Some b -> closing s = false -> step s (Release sid) = (s', o) ->
  credited sid o = qsum (bq b) /\ credited_conn o = qsum (bq b) /\ (forall x, x <> sid -> credited x o = 0) /\
  lookup_live sid (reg s') = None /\ held sid s' = 0 /\ queued sid s' = 0 /\
  (forall x, x <> sid -> lookup x (reg s') = lookup x (reg s)).
Proof. exact release_credits_rest. Qed.
Print Assumptions C08_release_credits_rest.

(* (4') release_stream is idempotent (it runs from the handler's `finally` and from the task's done-callback) *)
Theorem C08_release_idempotent :
  forall s sid s1 o1, step s (Release sid) = (s1, o1) -> step s1 (Release sid) = (s1, []).
Proof. exact release_idempotent. Qed.
Print Assumptions C08_release_idempotent.

(* (4'') on a closing connection the release acknowledges nothing: the queued credit stays in the released
   buffer (this is why (6) and (7) are statements about live connections) *)
Theorem C08_closing_release_forfeits :
  forall s sid b s' o,
  lookup_live sid (reg s) = Some b -> closing s = true -> step s (Release sid) = (s', o) ->
  (forall x, credited x o = 0) /\ credited_conn o = 0 /\ dropped sid o = qsum (bq b) /\
  lookup_live sid (reg s') = None /\ held sid s' = 0 /\ forfeited sid s' = qsum (bq b).
Proof. exact release_closing_forfeits. Qed.
Print Assumptions C08_closing_release_forfeits.

(* (5) DATA for an unknown / already finished stream is credited at once, in full *)
Theorem C08_unknown_stream_credited_at_once :
  forall s sid n pad s' o,
  lookup_live sid (reg s) = None -> step s (Data sid n pad) = (s', o) ->
  s' = s /\ received sid o = fcl n pad /\ credited sid o = fcl n pad /\
  received_conn o = fcl n pad /\ credited_conn o = fcl n pad.
Proof. exact data_unregistered_credited_at_once. Qed.
Print Assumptions C08_unknown_stream_credited_at_once.

(* (6) no leak: on a live connection every released stream has been credited in full, and once all streams
   are released so has the connection *)
Theorem C08_no_leak :
  forall h s o, legal init h = true -> run init h = (s, o) -> closing s = false ->
  (forall x, lookup_live x (reg s) = None -> credited x o = received x o) /\
  ((forall x, lookup_live x (reg s) = None) -> credited_conn o = received_conn o).
Proof. exact no_leak. Qed.
Print Assumptions C08_no_leak.

(* (6') read after release: on a live connection every released buffer is empty, nothing is forfeited ... *)
Theorem C08_released_buffers_empty :
  forall h s o, run init h = (s, o) -> closing s = false ->
  (forall x b, lookup x (reg s) = Some b -> brel b = true -> bq b = []) /\
  (forall x, forfeited x s = 0) /\ forfeited_conn s = 0.
Proof. exact released_buffers_empty. Qed.
Print Assumptions C08_released_buffers_empty.

(* (6'') ... so a read (or a resumed read) on it -- a reader left running after the call, a recv_message()
   after the `async with` block -- acknowledges nothing a second time *)
Theorem C08_read_on_empty_queue_credits_nothing :
  forall s sid b e s' o,
  lookup sid (reg s) = Some b -> bq b = [] -> (exists size, e = Read sid size) \/ e = Wake sid ->
  step s e = (s', o) -> (forall x, credited x o = 0) /\ credited_conn o = 0 /\ queued sid s' = 0.
Proof. exact read_empty_queue_credits_nothing. Qed.
Print Assumptions C08_read_on_empty_queue_credits_nothing.

(* (6''') credit never waits for write-readiness: pausing / resuming the transport is an identity step, so all
   theorems above hold verbatim for histories with pauses anywhere (acknowledgements are made while paused) *)
Theorem C08_pause_resume_identity :
  forall s, step s Pause = (s, []) /\ step s Resume = (s, []).
Proof. split; reflexivity. Qed.
Print Assumptions C08_pause_resume_identity.

(* (7) exactly once: at every earlier moment (after the prefix h1) the credit of a stream is below what it had
   received then, credit and receipts only grow, and at the end they are equal *)
Theorem C08_exactly_once :
  forall h1 h2 s1 o1 s o,
  forallb event_ok (h1 ++ h2) = true -> legal init (h1 ++ h2) = true ->
  run init h1 = (s1, o1) -> run init (h1 ++ h2) = (s, o) -> closing s = false ->
  forall x, lookup_live x (reg s) = None ->
  credited x o1 <= received x o1 /\ received x o1 <= received x o /\ credited x o1 <= credited x o /\
  credited x o = received x o.
Proof. exact exactly_once. Qed.
Print Assumptions C08_exactly_once.

(* (8) for every legal configuration the windows the peer derives from the connection preface are the
   configured ones; bounds are the ones in the source (Gen.Facts is regenerated from /repo on every run) *)
Theorem C08_windows_advertised :
  forall cw sw, cfg_wmin <= cw <= cfg_wmax -> cfg_wmin <= sw <= cfg_wmax ->
  configure cw sw = Some (cw, sw) /\
  exists p, connection_made cw sw = Some p /\ advertised_conn p = cw /\ advertised_stream p = sw.
Proof. exact windows_advertised. Qed.
Print Assumptions C08_windows_advertised.

(* (8') everything else is rejected by Configuration ... *)
Theorem C08_windows_rejected :
  forall cw sw, ~ (cfg_wmin <= cw <= cfg_wmax /\ cfg_wmin <= sw <= cfg_wmax) -> configure cw sw = None.
Proof.
  intros cw sw H. unfold configure. destruct (window_valid cw) eqn:E1, (window_valid sw) eqn:E2; try reflexivity.
  exfalso. apply H. split; apply window_valid_iff; assumption.
Qed.
Print Assumptions C08_windows_rejected.

(* (8'') ... and has to be: h2 refuses the preface for a connection window outside [65535, 2^31-1] *)
Theorem C08_preface_needs_validation :
  forall cw sw, cw < 65535 \/ 2147483647 < cw -> connection_made cw sw = None.
Proof. exact preface_needs_validation. Qed.
Print Assumptions C08_preface_needs_validation.

Theorem C08_source_bounds : cfg_wmin = 65535 /\ cfg_wmax = 2147483647.
Proof. split; reflexivity. Qed.
Print Assumptions C08_source_bounds.
