(* C04 -- No client operation outlives its stream or connection.
   Only the property theorems; the lemmas are in Proofs/C04Proofs.v.  The operations are the programs of
   Gen/StreamOps.v (`client_ops`), which tools/skeleton_ir.py re-slices from /repo/grpclib/client.py on
   every run, so every theorem below that mentions `client_ops` is re-checked against the source. *)
From Coq Require Import List Bool Arith ZArith.
From GV Require Import Model.StreamIR Model.StreamSem Model.GuardKernel Model.Termination
  Gen.StreamOps Proofs.C04Proofs.
Import ListNotations.

(* the path computation did not run out of fuel, and the table has the seven public operations *)
Theorem C04_paths_computed :
  call_paths_opt client_ops <> None /\ has_all_ops client_ops = true.
Proof. split; [exact client_paths_computed | vm_compute; reflexivity]. Qed.
Print Assumptions C04_paths_computed.

(* every await on every syntactic path (both branches of every `if`) of every public client
   operation is inside exactly one `with self._wrapper` *)
Theorem C04_every_client_await_guarded :
  forall o prog ps p, In (o, prog) client_ops -> prog_paths client_ops prog = Some ps ->
                      In p ps -> well_guarded p = true.
Proof.
  intros o prog ps p Hin Hps Hp. apply (client_prog_path_guarded prog ps p); [|exact Hps|exact Hp].
  apply in_or_app. left. exact (in_map snd _ _ Hin).
Qed.
Print Assumptions C04_every_client_await_guarded.

(* so is every await of the implicit finish of the context exit *)
Theorem C04_context_exit_awaits_guarded :
  forall ps p, prog_paths client_ops maybe_finish_prog = Some ps -> In p ps ->
               In p (call_paths client_ops) /\ well_guarded p = true.
Proof.
  intros ps p. apply client_prog_path_guarded. apply in_or_app. right. left. reflexivity.
Qed.
Print Assumptions C04_context_exit_awaits_guarded.

(* META-THEOREM over all well-guarded paths, all schedules, all decisions of the environment: once
   Wrapper.cancel has run nothing is suspended, every ready task finishes in its next scheduling step
   ("promptly": no further wake-up, no clock), and at quiescence every task is Done -- with an error
   given to Wrapper.cancel if it was blocked at a cancel or started after one and reaches a guard *)
Theorem C04_guarded_ops_complete_after_cancel :
  forall ls, Forall label_ok ls ->
    let s := krun ls kinit in
    werr s <> None ->
    (forall i tk, nth_error (tasks s) i = Some tk -> st tk <> Blocked) /\
    (forall t tk ds, nth_error (tasks s) t = Some tk -> is_ready (st tk) = true ->
       exists tk' r, nth_error (tasks (kstep s (Run t ds))) t = Some tk' /\ st tk' = Done r) /\
    (quiescent s = true ->
       forall i tk, nth_error (tasks s) i = Some tk ->
         exists r, st tk = Done r
           /\ (mark tk = MAtCancel -> wrap_res (errs s) r)
           /\ (mark tk = MAfter -> first_enter (orig tk) = true -> wrap_res (errs s) r)).
Proof. intros ls Hok s. exact (kinv_cancelled s (kinv_run ls kinit kinv_init Hok)). Qed.
Print Assumptions C04_guarded_ops_complete_after_cancel.

(* the guard hypothesis is necessary: an await outside the guard (the old Stream.end()) hangs *)
Theorem C04_unguarded_await_hangs :
  exists ls, let s := krun ls kinit in
    werr s <> None /\ quiescent s = true /\
    exists tk, nth_error (tasks s) 0 = Some tk /\ st tk = Blocked.
Proof.
  exists [Spawn [AAwait (SPrim PEnd); ASet]; Run 0 []; WCancel ETerminated].
  vm_compute. split; [discriminate|]. split; [reflexivity|]. eexists. split; reflexivity.
Qed.
Print Assumptions C04_unguarded_await_hangs.

(* delivery: GOAWAY / protocol error / connection_lost / Channel.close reach EVERY registered call *)
Theorem C04_conn_event_reaches_every_registered :
  forall s e c cl, nth_error s c = Some cl -> registered cl = true ->
    exists cl', nth_error (sstep s (LConn e)) c = Some cl'
                /\ werr (ck cl') = Some ETerminated /\ hit cl' = true.
Proof.
  intros s e c cl Hn Hr. simpl. rewrite nth_error_map, Hn. simpl. unfold conn_event. rewrite Hr.
  eexists. split; [reflexivity|]. split; reflexivity.
Qed.
Print Assumptions C04_conn_event_reaches_every_registered.

(* ... a stream reset -- RST_STREAM from the peer, or h2 resetting the stream itself after a stream-level
   protocol violation by the peer (`remote` either way) -- reaches that registered call and no other *)
Theorem C04_rst_reaches_that_call_only :
  forall s c cl remote, nth_error s c = Some cl -> registered cl = true ->
    (exists cl', nth_error (sstep s (LRst c remote)) c = Some cl'
                 /\ werr (ck cl') = Some ETerminated /\ hit cl' = true)
    /\ forall c', c' <> c -> nth_error (sstep s (LRst c remote)) c' = nth_error s c'.
Proof.
  intros s c cl remote Hn Hr. simpl. unfold upd. rewrite Hn, Hr. split.
  - eexists. split; [exact (nth_set_nth_eq _ _ _ _ Hn)|]. split; reflexivity.
  - intros c' Hne. apply nth_set_nth_ne. congruence.
Qed.
Print Assumptions C04_rst_reaches_that_call_only.

(* ... and a call that is not registered is not told *)
Theorem C04_conn_event_skips_unregistered :
  forall s e c cl, nth_error s c = Some cl -> registered cl = false ->
    exists cl', nth_error (sstep s (LConn e)) c = Some cl' /\ ck cl' = ck cl /\ hit cl' = hit cl.
Proof.
  intros s e c cl Hn Hr. simpl. rewrite nth_error_map, Hn. simpl. unfold conn_event. rewrite Hr.
  destruct (opening cl); eexists; (split; [reflexivity|]); split; reflexivity.
Qed.
Print Assumptions C04_conn_event_skips_unregistered.

(* MAIN, `_partial` (hypothesis `hit`: the call was registered when the event came; this excludes
   exactly the class of D6): for every history of the connection over the generated client API *)
Theorem C04_registered_call_ops_complete_partial :
  forall ls, Forall (slabel_ok client_ops) ls ->
    let s := srun ls [] in
    forall c cl, nth_error s c = Some cl -> hit cl = true ->
      let k := ck cl in
      werr k <> None /\
      (forall i tk, nth_error (tasks k) i = Some tk -> st tk <> Blocked) /\
      (forall t tk ds, nth_error (tasks k) t = Some tk -> is_ready (st tk) = true ->
         exists tk' r, nth_error (tasks (kstep k (Run t ds))) t = Some tk' /\ st tk' = Done r) /\
      (quiescent k = true ->
         forall i tk, nth_error (tasks k) i = Some tk ->
           exists r, st tk = Done r
             /\ (mark tk = MAtCancel \/ (mark tk = MAfter /\ first_enter (orig tk) = true) ->
                 r = RRaise (XWrap ETerminated)
                 \/ (has_deadline cl = true /\ r = RRaise (XWrap ETimeout)))).
Proof.
  intros ls Hok s c cl Hn. refine (cinv_hit_complete cl _).
  exact (proj1 (Forall_forall _ _) (sinv_run _ client_paths_guarded_b ls [] (Forall_nil _) Hok) cl
               (nth_error_In _ _ Hn)).
Qed.
Print Assumptions C04_registered_call_ops_complete_partial.

(* The full-strength statement -- the same for a call that a connection-level event found INSIDE
   protocol.Stream.send_request (`hit cl = true \/ missed cl = true`) -- is FALSE of the faithful
   model: defect D6.  Witness: send_request suspended inside protocol.Stream.send_request (member of
   its wrapper, not registered), connection_lost: quiescent, wrapper never told, still Blocked. *)
Theorem C04_affected_call_ops_complete_refuted :
  Forall (slabel_ok client_ops) d6_labels /\
  exists cl tk, nth_error (srun d6_labels []) 0 = Some cl
    /\ missed cl = true /\ hit cl = false /\ werr (ck cl) = None
    /\ quiescent (ck cl) = true
    /\ nth_error (tasks (ck cl)) 0 = Some tk /\ st tk = Blocked /\ at_open tk = true
    /\ is_member 0 (members (ck cl)) = true.
Proof. exact unregistered_waiter_refuted. Qed.
Print Assumptions C04_affected_call_ops_complete_refuted.

(* only the deadline ends such a call *)
Theorem C04_unregistered_waiter_deadline_rescues :
  let ls := [LNewCall true; LK 0 (Spawn d6_path); LK 0 (Run 0 (decisions d6_cell d6_path));
             LConn CLost; LDeadline 0; LK 0 (Run 0 [])] in
  exists cl tk, nth_error (srun ls []) 0 = Some cl
    /\ nth_error (tasks (ck cl)) 0 = Some tk /\ st tk = Done (RRaise (XWrap ETimeout)).
Proof. vm_compute. eexists. eexists. repeat split; reflexivity. Qed.
Print Assumptions C04_unregistered_waiter_deadline_rescues.

(* error upgrade at context exit: StreamTerminatedError becomes the explaining GRPCError exactly when
   a failing status had arrived (non-200 :status, trailers, or a trailers-only grpc-status); anything
   else passes through *)
Theorem C04_aexit_upgrade :
  forall h t,
    (forall k, aexit_outcome OTerminated h t = OGrpc k <-> maybe_raise h t = Some k) /\
    (aexit_outcome OTerminated h t = OTerminated <-> maybe_raise h t = None) /\
    (forall x, x <> OTerminated -> aexit_outcome x h t = x).
Proof. exact aexit_upgrade. Qed.
Print Assumptions C04_aexit_upgrade.

Theorem C04_maybe_raise_none_iff :
  forall h t,
    maybe_raise h t = None <->
    (match h with Some hh => h_ok hh = true | None => True end) /\
    (match t with
     | Some g => g = GCode 0
     | None => match h with Some hh => h_gs hh = GMissing \/ h_gs hh = GCode 0 | None => True end
     end).
Proof. exact maybe_raise_none_iff. Qed.
Print Assumptions C04_maybe_raise_none_iff.

Theorem C04_maybe_raise_code :
  forall h t k,
    maybe_raise h t = Some k ->
    (exists hh, h = Some hh /\ h_ok hh = false /\ k = h_mapped hh)
    \/ (exists g, (t = Some g \/ (t = None /\ exists hh, h = Some hh /\ h_gs hh = g /\ g <> GMissing))
                  /\ grpc_status_raises g = Some k).
Proof. exact maybe_raise_code. Qed.
Print Assumptions C04_maybe_raise_code.

(* the complete correspondence matrix (20160 cells: 10 operations incl. the context exit and the
   stub-style call, 6 events, 7 statuses, 3 variants), inside the model and on the generated
   operations: every path the interpreter selects is one of the syntactic paths the theorems quantify
   over, and in every cell that can be set up the operation is pending at quiescence EXACTLY in the D6
   class (hence `_partial`; the context exit is then pending too, and only a deadline ends it);
   everywhere else -- also for a context exit entered after a connection-level event -- the operation
   ends with a termination error and the call with exactly the error the property asks for (cells
   asking for a refused call: ProtocolError) *)
Theorem C04_matrix_pending_is_exactly_d6_partial :
  forall c, In c all_cells ->
    let p := predict client_ops c in
    p_inpaths p = true /\ p_setup p <> SError /\
    (p_setup p = SOk ->
       is_pending (p_op p) = d6_class c p /\
       is_pending (p_op p) = p_missed p /\
       (is_pending (p_ctx p) = true -> is_pending (p_op p) = true) /\
       is_pending (p_late p) = (is_pending (p_op p) && negb (c_deadline c)) /\
       (is_pending (p_op p) = false ->
          if misuse_class c then p_op p = OProtocol
          else is_term_error (p_op p) = true /\ p_ctx p = expected_ctx c)).
Proof. exact matrix_pending_is_exactly_d6. Qed.
Print Assumptions C04_matrix_pending_is_exactly_d6_partial.

(* the former finding D35, repaired: the server had answered NOT_FOUND (trailers), the connection is
   lost, the body ends normally: __aexit__ raises GRPCError(5) *)
Theorem C04_context_exit_after_conn_event_raises :
  let p := predict client_ops quiet_exit_cell in
  p_setup p = SOk /\ p_registered p = true /\ p_werr p = OTerminated /\ p_op p = OGrpc 5
  /\ p_ctx p = OGrpc 5 /\ expected_ctx quiet_exit_cell = OGrpc 5.
Proof. vm_compute. repeat split; reflexivity. Qed.
Print Assumptions C04_context_exit_after_conn_event_raises.
