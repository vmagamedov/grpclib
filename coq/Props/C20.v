(* C20 -- Generated stubs and service bases agree with the service definition.
   This file holds only the property theorems; each is closed by `exact` of a lemma proved in
   Proofs/C20Proofs.v (or Proofs/C20Examples.v for the refutation witnesses), or by a line or two from
   the lemmas there, and followed by Print Assumptions.

   Vocabulary (Model/Plugin.v, Proofs/C20Proofs.v):
     main req            the plugin's main() on a CodeGeneratorRequest: Ok [(output file, abstract module)]
                         or Err KeyError / StopIteration / TypeError
     resolves files t p  some file of the request declares a (possibly nested) message with full proto
                         name t, and p is "<its pb2 module>.<Outer>...<Inner>"
     unique_types files  no two declarations share a fully-qualified name (protoc guarantees this)
     exec_module am      what Python makes of the rendered module (trusted transcription, Part 2 of
                         the model): SyntaxError, or class name -> Base (abstract method keys,
                         __mapping__() result or NameError) / Stub (instance attributes or NameError) *)
From Coq Require Import ZArith List Bool String.
From GV Require Import Lib.Str Gen.Facts Gen.FactsC20 Model.Plugin Proofs.C20Proofs Proofs.C20Examples.
Import ListNotations.
Open Scope Z_scope.

(* (0) the model agrees with the REAL plugin on the probes: Gen.FactsC20 holds what main() of the
   repository under test answered, on this run, for 30 file paths (pb2 module imported by the generated
   code, output file name) and for the routes of 120 RPCs (Base mapping and Stub, packages empty /
   single / dotted; the statement fixes only lower bounds on the two counts, so the probe lists may
   change).  A changed suffix, replacement, route shape ... changes the table and breaks this
   proof; a refactoring that keeps the behaviour keeps the table. *)
Theorem C20_source_probes :
  forallb names_agree names_probe = true /\ forallb route_agrees route_probe = true /\
  Nat.leb 20 (List.length names_probe) = true /\ Nat.leb 40 (List.length route_probe) = true /\
  existsb (fun r => negb (nonempty (fst (fst r)))) route_probe = true.
Proof. exact source_probes. Qed.
Print Assumptions C20_source_probes.

(* (1) the cardinality tables (observed over their complete finite domains): the flags lookup of
   main() is total, each member means the flags it is found under (const.Cardinality), render picks a
   client class for it, and that class opens streams with the same member *)
Theorem C20_cardinality_tables :
  forall cs ss, exists c cls,
    cardinality_of cs ss = Some c /\ member_flags c = Some (cs, ss) /\
    method_cls c = Some cls /\ class_cardinality cls = Some c.
Proof. exact cardinality_tables. Qed.
Print Assumptions C20_cardinality_tables.

(* (1') ... and it is a bijection between the 4 flag pairs and the 4 members of const.Cardinality *)
Theorem C20_cardinality_bijection :
  (forall cs ss cs' ss', cardinality_of cs ss = cardinality_of cs' ss' -> (cs, ss) = (cs', ss')) /\
  List.length cardinality_members = 4%nat /\
  (forall name flags, In (name, flags) cardinality_members ->
                      cardinality_of (fst flags) (snd flags) = Some name).
Proof.
  split; [exact cardinality_injective | split; [reflexivity | exact cardinality_member_of_table]].
Qed.
Print Assumptions C20_cardinality_bijection.

(* (2) module names, for every path: strip one ".protodevel" or else one ".proto", then '-' -> '_'
   and '/' -> '.', then the suffix; the output file is the grpc module with '.' -> '/' plus ".py" *)
Theorem C20_module_names :
  forall p,
    pb2_module_name p = map dash_slash (strip_proto p) ++ s2z "_pb2" /\
    grpc_module_name p = map dash_slash (strip_proto p) ++ s2z "_grpc" /\
    out_file_name p = map (fun c => if c =? 46 then 47 else c) (grpc_module_name p) ++ s2z ".py".
Proof.
  intros p. unfold pb2_module_name at 1, grpc_module_name at 1. rewrite base_module_name_spec.
  split; [|split]; reflexivity.
Qed.
Print Assumptions C20_module_names.

Theorem C20_strip_proto :
  (forall b, strip_proto (b ++ s2z ".protodevel") = b) /\
  (forall b, strip_proto (b ++ s2z ".proto") = b) /\
  (forall p, ends_with (s2z ".protodevel") p = false -> ends_with (s2z ".proto") p = false ->
             strip_proto p = p).
Proof.
  split; [|split].
  - intros b. exact (strip_first_hit [] _ _ b (fun _ H => match H with end)).
  - intros b. apply (strip_first_hit [s2z ".protodevel"] _ [] b). intros s [<-|[]].
    unfold ends_with. rewrite rev_app_distr. reflexivity.   (* the last characters differ *)
  - intros p H1 H2. apply strip_first_miss. intros s [<-|[<-|[]]]; assumption.
Qed.
Print Assumptions C20_strip_proto.

(* (3) type resolution, for ALL descriptor sets with unique fully-qualified names: a message declared
   in any file f of the request (top-level or nested to any depth: `declares (f_msgs f) path`),
   looked up by its full proto name, yields "<pb2 module of f>.<Outer>...<Inner>" *)
Theorem C20_type_resolution :
  forall files f path,
    unique_types files -> In f files -> declares (f_msgs f) path ->
    lookup_last (proto_name (f_package f) path) (types_entries files)
    = Some (py_name (pb2_module_name (f_name f)) path).
Proof.
  intros files f path Hu Hf Hd. apply (lookup_complete files _ _ Hu). exists f, path. auto.
Qed.
Print Assumptions C20_type_resolution.

(* (3') for ALL descriptor sets (no uniqueness assumed): whatever the lookup returns is the python path
   of a declaration with exactly that full name; it fails (KeyError) exactly for undeclared names;
   with duplicate full names the declaration in the later file wins (dict.update) *)
Theorem C20_type_lookup_sound :
  forall files t py, lookup_last t (types_entries files) = Some py -> resolves files t py.
Proof. exact lookup_sound. Qed.
Print Assumptions C20_type_lookup_sound.

Theorem C20_type_lookup_keyerror :
  forall files t, lookup_last t (types_entries files) = None <-> ~ exists py, resolves files t py.
Proof. exact lookup_none. Qed.
Print Assumptions C20_type_lookup_keyerror.

Theorem C20_duplicate_type_later_file_wins :
  forall files1 files2 t py,
    lookup_last t (types_entries files2) = Some py ->
    lookup_last t (types_entries (files1 ++ files2)) = Some py.
Proof.
  intros files1 files2 t py H. unfold types_entries in *. rewrite flat_map_app, lookup_last_app, H. reflexivity.
Qed.
Print Assumptions C20_duplicate_type_later_file_wins.

(* (4) main() succeeds -- one output file per file_to_generate, named <dir>/<base>_grpc.py -- whenever
   every file to generate is in the request and all types its methods reference are declared in some
   file of the request ... *)
Theorem C20_main_succeeds :
  forall req,
    (forall g, In g (r_gen req) ->
       exists pf, get_proto (r_files req) g = Some pf /\ all_types_declared (r_files req) pf) ->
    exists mods, main req = Ok mods /\ map fst mods = map out_file_name (r_gen req).
Proof.
  intros req H. eexists. split; [apply main_Ok; split; [|reflexivity] | rewrite map_map; reflexivity].
  intros g Hg. apply gen_ok_iff, H, Hg.
Qed.
Print Assumptions C20_main_succeeds.

(* (4') ... and the error branches, covered explicitly: it raises exactly StopIteration for a file to
   generate that is not in the request, KeyError for a referenced type no file declares; TypeError
   (render's last else) is unreachable *)
Theorem C20_main_raises :
  forall req e,
    main req = Err e ->
    exists g, In g (r_gen req) /\
      ((e = EStopIteration /\ ~ In g (map f_name (r_files req))) \/
       (e = EKeyError /\ exists pf, get_proto (r_files req) g = Some pf /\
                                    ~ all_types_declared (r_files req) pf)).
Proof. exact main_raises. Qed.
Print Assumptions C20_main_raises.

Theorem C20_undeclared_type_raises :
  forall req g pf,
    In g (r_gen req) -> get_proto (r_files req) g = Some pf ->
    ~ all_types_declared (r_files req) pf -> exists e, main req = Err e.
Proof.
  intros req g pf Hg Hp Hnot. apply (main_fails req g Hg). rewrite gen_ok_iff.
  intros [pf' [Hp' Hd]]. congruence.
Qed.
Print Assumptions C20_undeclared_type_raises.

Theorem C20_missing_file_raises :
  forall req g, In g (r_gen req) -> ~ In g (map f_name (r_files req)) -> exists e, main req = Err e.
Proof.
  intros req g Hg Hn. apply (main_fails req g Hg). intros [pf [Hp _]]. apply get_proto_None in Hn. congruence.
Qed.
Print Assumptions C20_missing_file_raises.

(* (5) THE PER-RPC STATEMENT.  For ALL descriptor sets with unique fully-qualified names: every RPC m
   of every service s of every generated file pf appears in the rendered module with an abstract
   method of its name, a Base mapping entry and a Stub attribute, both at the route
   "/" ++ (package ++ "." if package non-empty) ++ service ++ "/" ++ method, with the cardinality
   member whose flags are the declared (client_streaming, server_streaming), the client class of that
   cardinality, and request/reply resolved to the python paths rq, rp of the declared types
   (nested and imported ones: `resolves`). *)
Theorem C20_rpc_rendered :
  forall req mods g pf s m rq rp,
    unique_types (r_files req) ->
    main req = Ok mods -> In g (r_gen req) -> get_proto (r_files req) g = Some pf ->
    In s (f_services pf) -> In m (sv_methods s) ->
    resolves (r_files req) (me_in m) rq -> resolves (r_files req) (me_out m) rp ->
    exists am a c cls,
      In (out_file_name g, am) mods /\ In a (a_classes am) /\ as_name a = sv_name s /\
      cardinality_of (me_cs m) (me_ss m) = Some c /\ member_flags c = Some (me_cs m, me_ss m) /\
      method_cls c = Some cls /\ class_cardinality cls = Some c /\
      In (me_name m) (as_abstract a) /\
      In (MapEntry (route (f_package pf) (sv_name s) (me_name m)) (me_name m) c rq rp) (as_mapping a) /\
      In (StubEntry (me_name m) cls (route (f_package pf) (sv_name s) (me_name m)) rq rp) (as_stub a).
Proof. exact rpc_rendered. Qed.
Print Assumptions C20_rpc_rendered.

(* (5') the route, spelled out: no leading dot when the package is empty *)
Theorem C20_route_with_package :
  forall pkg svc m, pkg <> [] -> route pkg svc m = s2z "/" ++ pkg ++ s2z "." ++ svc ++ s2z "/" ++ m.
Proof.
  intros pkg svc m H. unfold route, service_qual, dot. destruct pkg; [contradiction|]. cbn [nonempty].
  rewrite <- !app_assoc. reflexivity.
Qed.
Print Assumptions C20_route_with_package.

Theorem C20_route_empty_package :
  forall svc m, route [] svc m = s2z "/" ++ svc ++ s2z "/" ++ m.
Proof. reflexivity. Qed.
Print Assumptions C20_route_empty_package.

(* (6) nothing else is rendered, for ALL descriptor sets on which main() succeeds: one class pair per
   declared service in order; abstract methods = mapping functions = stub attributes = exactly the
   declared RPC names, in declaration order; a file without services has no imports and no classes;
   otherwise the imports are abc, typing, grpclib.const, grpclib.client, the pb2 modules of the direct
   dependencies and the file's own pb2 module *)
Theorem C20_module_shape :
  forall req mods g pf,
    main req = Ok mods -> In g (r_gen req) -> get_proto (r_files req) g = Some pf ->
    exists am, In (out_file_name g, am) mods /\ a_source am = f_name pf /\
      (f_services pf = [] -> a_imports am = [] /\ a_guarded am = [] /\ a_classes am = []) /\
      (f_services pf <> [] ->
         a_imports am = std_imports ++ map pb2_module_name (f_deps pf ++ [g]) /\
         a_guarded am = guarded_imports) /\
      Forall2 (service_shape (f_package pf)) (f_services pf) (a_classes am).
Proof. exact module_shape. Qed.
Print Assumptions C20_module_shape.

(* (6') "exactly once": with distinct RPC names in a service, no route, function or attribute repeats *)
Theorem C20_exactly_once :
  forall pkg s a,
    service_shape pkg s a -> NoDup (map me_name (sv_methods s)) ->
    NoDup (as_abstract a) /\ NoDup (map e_route (as_mapping a)) /\ NoDup (map e_func (as_mapping a)) /\
    NoDup (map s_attr (as_stub a)) /\ NoDup (map s_route (as_stub a)) /\
    List.length (as_mapping a) = List.length (sv_methods s) /\ List.length (as_stub a) = List.length (sv_methods s).
Proof. exact shape_exactly_once. Qed.
Print Assumptions C20_exactly_once.

(* (7) Base mapping and Stub agree with each other entry by entry, in EVERY module main() renders:
   same route, name, request and reply type; the stub's client class is the one render picks for the
   mapping entry's cardinality and carries that cardinality itself *)
Theorem C20_base_stub_agree :
  forall req mods nm a,
    main req = Ok mods -> In nm mods -> In a (a_classes (snd nm)) ->
    Forall2 agree (as_mapping a) (as_stub a).
Proof.
  intros req mods nm a Hmain Hnm Ha. destruct (main_classes _ _ _ _ Hmain Hnm Ha) as [pkg [s ->]].
  apply spec_service_agree.
Qed.
Print Assumptions C20_base_stub_agree.

(* (8) duplicate names (protoc rejects them; stated instead of assumed away): Python binds a repeated
   key -- method name in the class body, route in the dict literal, attribute in __init__, class name
   in the module -- to its LAST value, keeps one binding per key, and changes nothing when keys are
   distinct *)
Theorem C20_duplicate_names_last_wins :
  forall (l : list (str * map_entry)),
    (forall k, assoc_str k (dict_of l) = lookup_last k l) /\ NoDup (map fst (dict_of l)) /\
    (NoDup (map fst l) -> dict_of l = l).
Proof.
  intros l. split; [intros k; apply dict_of_last_wins | split; [apply dict_of_NoDup | apply dict_of_NoDup_id]].
Qed.
Print Assumptions C20_duplicate_names_last_wins.

(* (9) THE EXECUTED MODULE.
   FULL statement (FALSE, see the three refutations below): for every descriptor set protoc can hand
   over (proto identifiers, unique names, every referenced type declared in a file of the request)
   the generated module imports and its executed classes are exactly the rendered ones.
   PARTIAL (proved): the same under
     - definition_clean: service names distinct, RPC names distinct and not of the form __x, every
       referenced type declared in the file itself or a DIRECT dependency (excludes D31),
     - syntax_ok am: every emitted identifier is a Python identifier and no keyword (excludes D32),
     - modelled am: no dunder RPC names, every route a plain string literal, no top-level pb2 package
       named like a generated class or like abc / typing (excludes D33's dunder half and D34; outside
       the transcription of Python). *)
Theorem C20_executed_module_partial :
  forall req mods g pf,
    unique_types (r_files req) ->
    main req = Ok mods -> In g (r_gen req) -> get_proto (r_files req) g = Some pf ->
    definition_clean (r_files req) pf ->
    exists am, In (out_file_name g, am) mods /\
      (syntax_ok am = true -> modelled am = true -> exec_module am = Ok (ideal_exec am)).
Proof.
  intros req mods g pf Hu Hmain Hg Hp Hclean. eexists. split; [exact (main_In _ _ _ _ Hmain Hg Hp)|].
  apply spec_module_executes; [exact Hu | apply (get_proto_Some _ _ _ Hp) | exact Hclean].
Qed.
Print Assumptions C20_executed_module_partial.

(* D31: types reaching the file through `import public` -- __mapping__() and Stub() raise NameError *)
Theorem C20_executed_module_any_refuted :
  exists req mods g pf am,
    proto_idents req = true /\ unique_types (r_files req) /\ NoDup (map f_name (r_files req)) /\
    main req = Ok mods /\ In g (r_gen req) /\ get_proto (r_files req) g = Some pf /\
    definition_clean_any (r_files req) pf /\ In (out_file_name g, am) mods /\
    syntax_ok am = true /\ modelled am = true /\
    exec_module am = Ok [ (s2z "SBase", CBase (EBase [s2z "Foo"] (Err ENameError)));
                          (s2z "SStub", CStub (EStub (Err ENameError))) ].
Proof. exact executed_module_any_refuted. Qed.
Print Assumptions C20_executed_module_any_refuted.

(* D32: "imports cleanly" fails for an RPC named like a Python keyword (a valid proto identifier) *)
Theorem C20_imports_cleanly_refuted :
  exists req mods nm, proto_idents req = true /\ unique_types (r_files req) /\
    main req = Ok mods /\ In nm mods /\ exec_module (snd nm) = Err ESyntaxError.
Proof. exact imports_cleanly_refuted. Qed.
Print Assumptions C20_imports_cleanly_refuted.

(* D33: an RPC named __Foo is rendered under its name but bound under per-class mangled names *)
Theorem C20_declared_names_refuted :
  exists req mods nm b st attrs,
    proto_idents req = true /\ unique_types (r_files req) /\ main req = Ok mods /\ In nm mods /\
    syntax_ok (snd nm) = true /\ modelled (snd nm) = true /\
    exec_module (snd nm) = Ok [(s2z "SBase", CBase b); (s2z "SStub", CStub st)] /\
    es_attrs st = Ok attrs /\
    eb_abstract b = [s2z "_SBase__Foo"] /\ map fst attrs = [s2z "_SStub__Foo"] /\
    map as_abstract (a_classes (snd nm)) = [[s2z "__Foo"]].
Proof. exact declared_names_refuted. Qed.
Print Assumptions C20_declared_names_refuted.

(* (10) a file without services yields a module without imports and classes, and it executes *)
Theorem C20_no_services_no_classes :
  forall req mods g pf,
    main req = Ok mods -> In g (r_gen req) -> get_proto (r_files req) g = Some pf ->
    f_services pf = [] ->
    In (out_file_name g, AModule (f_name pf) [] [] []) mods /\
    exec_module (AModule (f_name pf) [] [] []) = Ok [].
Proof.
  intros req mods g pf Hmain Hg Hp He. rewrite <- (spec_module_empty (types_entries (r_files req)) pf g He) at 1.
  split; [exact (main_In _ _ _ _ Hmain Hg Hp) | reflexivity].
Qed.
Print Assumptions C20_no_services_no_classes.
