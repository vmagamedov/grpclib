(* C07 -- Senders respect peer flow control and always resume when credit returns.
   Model: Model/FlowSend.v (N concurrent Stream.send_data loops, h2's outbound accounting, the
   write_ready / window_updated Events, the wake-ups of EventsProcessor).  Every theorem quantifies
   over ALL configurations (number of senders, message lengths, stream windows, connection window,
   max frame size) and over ALL finite interleavings of peer actions with sender steps (`ops`);
   `reachable cfg cw iw mf s` = s is the state after some op list from `init cfg cw iw mf`, with
   message lengths >= 0 and max frame >= 1.  This file holds only the property theorems; each is
   a lemma of Proofs/C07Proofs.v or follows from one in a line or two (the invariant `Inv` holds in
   every reachable state) -- (8) by unfolding `step`, (9) by evaluation -- and is followed by Print
   Assumptions. *)
From Coq Require Import String ZArith List Bool Lia ZifyBool.
From GV Require Import Lib.Str Gen.FactsC07 Model.FlowSend Proofs.C07Proofs Proofs.C07Examples.
Import ListNotations.
Open Scope Z_scope.

(* (1) safety: whatever is emitted is emitted by the sender that was run, at its current position,
   and does not exceed its stream window, the connection window or the max frame size as they are
   at that moment; an empty frame only for an empty message *)
Theorem C07_never_exceeds_window_or_frame :
  forall cfg cw iw mf s o ch,
  reachable cfg cw iw mf s -> In ch (snd (step s o)) ->
  exists x, o = Run (c_sid ch) /\ nth_error (senders s) (c_sid ch) = Some x /\
            s_pc x = CheckWindow /\
            c_off ch = s_pos x /\ 0 <= c_len ch /\
            c_len ch <= s_win x /\ c_len ch <= cwin s /\ c_len ch <= mfs s /\
            c_off ch + c_len ch <= s_len x /\ (c_len ch = 0 -> s_len x = 0).
Proof. exact safety. Qed.
Print Assumptions C07_never_exceeds_window_or_frame.

(* (1') h2.send_data never raises FlowControlError / FrameTooLargeError out of send_data *)
Theorem C07_h2_never_refuses_a_send :
  forall cfg cw iw mf s x,
  reachable cfg cw iw mf s -> In x (senders s) -> s_pc x <> Failed.
Proof. intros * R%reachable_Inv. now apply never_failed. Qed.
Print Assumptions C07_h2_never_refuses_a_send.

(* (1'') a send never overdraws: it lowers a window only within its non-negative part (windows
   become negative through SETTINGS only) ... *)
Theorem C07_send_never_overdraws :
  forall cfg cw iw mf s i j x x',
  reachable cfg cw iw mf s -> nth_error (senders s) j = Some x ->
  nth_error (senders (fst (step s (Run i)))) j = Some x' ->
  (s_win x' = s_win x \/ 0 <= s_win x' < s_win x) /\
  (cwin (fst (step s (Run i))) = cwin s \/ 0 <= cwin (fst (step s (Run i))) < cwin s).
Proof. intros * R%reachable_Inv. now apply run_windows. Qed.
Print Assumptions C07_send_never_overdraws.

(* ... and the connection window, which SETTINGS does not touch, is never negative *)
Theorem C07_connection_window_never_negative :
  forall cfg cw iw mf s, 0 <= cw -> reachable cfg cw iw mf s -> 0 <= cwin s.
Proof.
  intros * Hc [W [ops ->]]. apply (run_inv _ _ (fun s o _ => cwin_nonneg_step s o)); auto using Inv_init.
Qed.
Print Assumptions C07_connection_window_never_negative.

(* (2) order: the DATA frames of stream i, in emission order, tile [0, position) with no gap,
   overlap or reordering, whatever pause/resume/credit history; complete when the sender is Done *)
Theorem C07_chunks_in_order :
  forall cfg cw iw mf ops i lw x,
  wf_cfg cfg mf -> nth_error cfg i = Some lw ->
  nth_error (senders (fst (run (init cfg cw iw mf) ops))) i = Some x ->
  s_len x = fst lw /\
  contig 0 (chunks_of i (snd (run (init cfg cw iw mf) ops))) (s_pos x) /\
  s_pos x <= s_len x /\ (s_pc x = Done -> s_pos x = s_len x).
Proof.
  intros * W E. apply (run_sender _ ops i (mkSender Top 0 (fst lw) (snd lw) false)); [now apply Inv_init|].
  cbn. now rewrite nth_error_map, E.
Qed.
Print Assumptions C07_chunks_in_order.

(* (2') the same on bytes: what the peer has received on stream i is a prefix of the message, and
   the whole message once send_data has returned *)
Theorem C07_bytes_in_order :
  forall (data : list Z) cfg cw iw mf ops i lw x,
  wf_cfg cfg mf -> nth_error cfg i = Some lw -> Z.of_nat (length data) = fst lw ->
  nth_error (senders (fst (run (init cfg cw iw mf) ops))) i = Some x ->
  let received := concat (map (fun oc => slice data (fst oc) (snd oc))
                              (chunks_of i (snd (run (init cfg cw iw mf) ops)))) in
  received = firstn (Z.to_nat (s_pos x)) data /\ (s_pc x = Done -> received = data).
Proof.
  intros * W E HL Ex. destruct (C07_chunks_in_order _ _ _ _ _ _ _ _ W E Ex) as (L & C & _ & D).
  destruct (received_prefix data _ _ C) as [R F]. split; [exact R|]. intros Hd. apply F. now rewrite (D Hd), L.
Qed.
Print Assumptions C07_bytes_in_order.

(* (3) no lost wake-up: a sender suspended on its window_updated event has no credit; a sender
   suspended on write_ready is suspended only while writing is paused *)
Theorem C07_no_lost_wakeup :
  forall cfg cw iw mf s x,
  reachable cfg cw iw mf s -> In x (senders s) ->
  (s_pc x = WaitWindow -> local_window s x <= 0) /\ (s_pc x = WaitWrite -> wready s = false).
Proof. intros * R%reachable_Inv. now apply no_lost_wakeup. Qed.
Print Assumptions C07_no_lost_wakeup.

(* (4) progress: in a quiescent state (no task ready) an unfinished sender is blocked for a reason
   that still holds: writing is paused, or it has no credit *)
Theorem C07_progress :
  forall cfg cw iw mf s x,
  reachable cfg cw iw mf s -> quiescent s = true -> In x (senders s) -> s_pc x <> Done ->
  (s_pc x = WaitWrite /\ wready s = false) \/ (s_pc x = WaitWindow /\ local_window s x <= 0).
Proof. intros * R%reachable_Inv. now apply progress. Qed.
Print Assumptions C07_progress.

(* (5a) credit returning by ANY means (stream update, connection update, larger initial window --
   the statement does not care how the state was reached) leaves the sender ready to run *)
Theorem C07_credit_wakes :
  forall cfg cw iw mf s x,
  reachable cfg cw iw mf s -> In x (senders s) -> s_pc x <> Done ->
  wready s = true -> 0 < local_window s x -> ready_pc (s_pc x) = true.
Proof. intros * R%reachable_Inv. now apply credit_makes_ready. Qed.
Print Assumptions C07_credit_wakes.

(* (5b) once sender i is granted credit with writing resumed, EVERY schedule of the senders that
   reaches quiescence has made progress: the bytes still to send (over all senders) decreased *)
Theorem C07_grant_makes_progress :
  forall cfg cw iw mf s i runs,
  reachable cfg cw iw mf s -> granted s i -> forallb is_run runs = true ->
  quiescent (fst (run s runs)) = true -> total (fst (run s runs)) < total s.
Proof. intros * R%reachable_Inv. now apply round_progress. Qed.
Print Assumptions C07_grant_makes_progress.

(* (5c) hence sender i can be found unfinished at a grant at most `total s` times: repeated grants
   finish it (arbitrary other peer actions, pauses and schedules in between) *)
Theorem C07_repeated_grants_finish :
  forall cfg cw iw mf s i n s',
  reachable cfg cw iw mf s -> rounds i n s s' -> Z.of_nat n <= total s.
Proof. intros * R%reachable_Inv. now apply rounds_bounded. Qed.
Print Assumptions C07_repeated_grants_finish.

(* (5d) with ample credit (every stream window covers its message, the connection window covers
   all of them, writing resumed) every sender completes in one run to quiescence, any schedule *)
Theorem C07_ample_credit_completes_all :
  forall cfg cw iw mf s runs,
  reachable cfg cw iw mf s -> ample s -> forallb is_run runs = true ->
  quiescent (fst (run s runs)) = true ->
  forall x, In x (senders (fst (run s runs))) -> s_pc x = Done.
Proof. intros * R%reachable_Inv. now apply ample_completes. Qed.
Print Assumptions C07_ample_credit_completes_all.

(* (5e) REFUTED as stated in DESIGN section 2 ("i finishes within remaining_i wake-ups"): a grant
   that makes i's window positive can be used up by a competitor that runs first (FIFO = registry
   order); i is woken, finds no credit and waits again.  Not a loss of liveness: (5b)-(5d). *)
Theorem C07_per_sender_bound_refuted :
  granted cx_s 1 /\
  (let r := fifo_result None cx_s in
   quiescent (fst r) = true /\ snd r = [mkChunk 0 0 10] /\
   exists x, nth_error (senders (fst r)) 1 = Some x /\ s_pos x = 0 /\ s_pc x = WaitWindow).
Proof. exact competitor_uses_the_grant. Qed.
Print Assumptions C07_per_sender_bound_refuted.

(* (6) back-pressure: after pause_writing a sender emits at most the one chunk it had already been
   woken for, then suspends *)
Theorem C07_at_most_one_chunk_while_paused :
  forall cfg cw iw mf s i s1 out1 s2 out2,
  reachable cfg cw iw mf s -> wready s = false ->
  step s (Run i) = (s1, out1) -> step s1 (Run i) = (s2, out2) -> out1 = [] \/ out2 = [].
Proof. intros * R%reachable_Inv _. now apply no_two_sends_in_a_row. Qed.
Print Assumptions C07_at_most_one_chunk_while_paused.

(* (7) the deterministic FIFO run to quiescence that the correspondence check executes is one of
   the schedules the theorems above quantify over, and it ends in a quiescent state *)
Theorem C07_fifo_is_a_schedule :
  forall budget s, exists ops, forallb sched_op ops = true /\ run s ops = fifo_result budget s.
Proof. exact fifo_is_schedule. Qed.
Print Assumptions C07_fifo_is_a_schedule.

Theorem C07_fifo_reaches_quiescence :
  forall cfg cw iw mf s budget,
  reachable cfg cw iw mf s -> broken s = false -> quiescent (fst (fifo_result budget s)) = true.
Proof. intros * R. apply fifo_quiescent; eauto using reachable_Inv, reachable_RQW. Qed.
Print Assumptions C07_fifo_reaches_quiescence.

(* (8) the error branch of the totalised model: a peer action that h2 rejects (zero / overflowing
   increment, MAX_FRAME_SIZE or INITIAL_WINDOW_SIZE out of range) marks the connection broken
   (grpclib closes it), and nothing is sent on a broken connection *)
Theorem C07_invalid_peer_action_breaks :
  forall s, broken s = false ->
  (forall k, (k < 1 \/ max_window < cwin s + k) -> broken (fst (step s (WinConn k))) = true) /\
  (forall m, (m < min_frame \/ max_frame < m) -> broken (fst (step s (SetMaxFrame m))) = true) /\
  (forall v, (v < 0 \/ max_window < v) -> broken (fst (step s (SetInitWin v))) = true) /\
  (forall i x k, nth_error (senders s) i = Some x -> (k < 1 \/ max_window < s_win x + k) ->
                 broken (fst (step s (WinStream i k))) = true).
Proof.
  intros s Hb. unfold step, do_win_conn, do_max_frame, do_init_win, do_win_stream. rewrite Hb.
  repeat split; intros; try rewrite H; cbn; destruct (_ || _) eqn:E; auto; lia.
Qed.
Print Assumptions C07_invalid_peer_action_breaks.

Theorem C07_broken_is_final :
  forall s o, broken s = true -> step s o = (s, []).
Proof. exact broken_is_final. Qed.
Print Assumptions C07_broken_is_final.

(* (9) tie to the source.  tools/facts_C07.py -> Gen/FactsC07.v (regenerated from /repo on every run):
   the control-flow paths of Stream.send_data, process_window_updated, process_remote_settings_changed
   and the pause/resume/flush plumbing, private helpers executed in place, as sequences of effects on
   objects named by role (independent of the names of locals / private attributes / helpers, of if-else
   versus early return, of temporaries).  They are the paths Model/FlowSend.v transcribes ... *)
Theorem C07_source_paths :
  paths_send_data = P expected_send_data /\
  paths_process_window_updated = P expected_window_updated /\
  paths_process_remote_settings_changed = P expected_settings_changed /\
  paths_connection_pause_writing = P [["clear:write_ready"; "->exit"]]%string /\
  paths_connection_resume_writing = P expected_resume_writing /\
  paths_connection_flush = P expected_flush /\
  paths_protocol_pause_writing = P [["call:connection.pause_writing"; "->exit"]]%string /\
  paths_protocol_resume_writing = P [["call:connection.resume_writing"; "->exit"]]%string.
Proof. vm_compute. repeat split; reflexivity. Qed.
Print Assumptions C07_source_paths.

(* ... and, spelled out as what the model assumes of Stream.send_data: (a) no suspension point between the
   window read and the h2 send + transport write; (b) every h2.send_data is written to the transport at
   once (so no DATA frame of a sender is queued in h2 when resume_writing flushes); (c) the only waits
   are on write_ready at the top of an iteration and on the stream's own window_updated right after
   clear(), and every back edge (of whichever loop) leads to awaiting write_ready and reading the window
   afresh (re-check); (d) the branch is on window > 0 exactly and the chunk is bounded by the window and
   the max frame size read since the last suspension point; and all three kinds of path exist *)
Theorem C07_source_send_data_facts :
  forallb no_await_after_window_read paths_send_data = true /\
  forallb send_written_at_once paths_send_data = true /\
  forallb waits_ok paths_send_data = true /\
  forallb window_branches_ok paths_send_data = true /\
  existsb (has "window<=0") paths_send_data = true /\
  existsb (fun p => has "h2:send_data" p && has "->loop" p) paths_send_data = true /\
  existsb (fun p => has "h2:send_data" p && has "->exit" p) paths_send_data = true.
Proof. vm_compute. repeat split; reflexivity. Qed.
Print Assumptions C07_source_send_data_facts.

(* (e) a window update for stream 0 / an INITIAL_WINDOW_SIZE change sets the event of EVERY registered
   stream, otherwise that of the addressed stream; (f) pause clears write_ready, resume sets it first *)
Theorem C07_source_wakeup_facts : wakeups_ok = true /\ pause_resume_ok = true.
Proof. vm_compute. split; reflexivity. Qed.
Print Assumptions C07_source_wakeup_facts.

(* (10) the connection around the senders (Model/FlowSend.v, `conn`): the transport's own paused
   state, frames queued in h2 by Stream.reset_nowait() while write_ready is clear, the flush of
   Connection.resume_writing, and the transport pausing AGAIN from inside that flush (ResumeP).
   Every history of the connection is a history of the sender system, so (1)-(8) hold along it *)
Theorem C07_connection_histories_are_sender_histories :
  forall cfg cw iw mf c, creachable cfg cw iw mf c -> reachable cfg cw iw mf (core c).
Proof. exact creachable_core. Qed.
Print Assumptions C07_connection_histories_are_sender_histories.

(* write_ready is set exactly when the transport is not paused -- in particular after a resume that
   re-paused inside its own flush the flag is CLEAR -- and frames stay queued only while paused *)
Theorem C07_write_ready_tracks_transport :
  forall cfg cw iw mf c, creachable cfg cw iw mf c ->
  wready (core c) = negb (tpaused c) /\ (hq c = true -> tpaused c = true).
Proof. exact creachable_WT. Qed.
Print Assumptions C07_write_ready_tracks_transport.

(* back-pressure stated on the TRANSPORT's state: while it is paused a sender emits at most the one
   chunk it had already been woken for ... *)
Theorem C07_paused_transport_suspends_sending :
  forall cfg cw iw mf c i s1 out1 s2 out2,
  creachable cfg cw iw mf c -> tpaused c = true ->
  step (core c) (Run i) = (s1, out1) -> step s1 (Run i) = (s2, out2) -> out1 = [] \/ out2 = [].
Proof. intros * R%creachable_core%reachable_Inv _. now apply no_two_sends_in_a_row. Qed.
Print Assumptions C07_paused_transport_suspends_sending.

(* ... and a credit-starved sender that is granted credit while the transport is paused writes
   nothing: it is woken, reaches the loop top and suspends on write_ready *)
Theorem C07_credit_on_paused_transport_writes_nothing :
  forall cfg cw iw mf c i x s1 out1,
  creachable cfg cw iw mf c -> tpaused c = true -> broken (core c) = false ->
  nth_error (senders (core c)) i = Some x -> s_pc x = Top ->
  step (core c) (Run i) = (s1, out1) ->
  out1 = [] /\ nth_error (senders s1) i = Some (with_pc x WaitWrite).
Proof.
  intros * R T Hb. destruct (creachable_WT _ _ _ _ _ R) as [W _]. rewrite T in W.
  now apply top_blocks_when_paused.
Qed.
Print Assumptions C07_credit_on_paused_transport_writes_nothing.

(* the FIFO run on the connection executed by the correspondence is a history of the connection *)
Theorem C07_cfifo_is_a_history :
  forall budget c, WT c -> exists ops, crun c ops = cfifo budget c.
Proof. exact cfifo_is_history. Qed.
Print Assumptions C07_cfifo_is_a_history.
