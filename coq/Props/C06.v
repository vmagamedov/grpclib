(* C06 -- Any order of stream API calls yields a well-formed gRPC exchange or a refusal.
   Only the property theorems; proofs in Proofs/C06Closure.v and Proofs/C06Proofs.v, about the programs
   in Gen/StreamOps.v that tools/skeleton_ir.py regenerates from /repo's client.py / server.py on
   every run. *)
From Coq Require Import List Bool.
From GV Require Import Lib.Reach Model.StreamIR Model.StreamSem Gen.StreamOps Proofs.C06Closure Proofs.C06Proofs.
Import ListNotations.

(* For both sides, all four cardinalities and either state of the peer's half of the stream: in every
   state reachable by ANY finite history of API calls (any arguments, every environment-dependent
   decision taken either way) the frames emitted so far are a prefix of a well-formed Request /
   Response, and no call refused with ProtocolError emitted a frame or changed a flag. *)
Theorem C06_any_call_order_is_wellformed :
  forall (sd : side) (cs ss remote : bool) (g : gstate),
    reachable sd cs ss remote g -> good sd cs ss g = true.
Proof. exact any_call_order_is_wellformed. Qed.
Print Assumptions C06_any_call_order_is_wellformed.

(* `reachable` quantifies over every call there is *)
Theorem C06_call_universe_complete : forall c : call, In c all_calls.
Proof. exact all_calls_complete. Qed.
Print Assumptions C06_call_universe_complete.

(* a refused call is silent: it puts nothing on the wire and changes no flag *)
Theorem C06_refusal_is_silent :
  forall sd cs ss remote g c g' r fr,
    reachable sd cs ss remote g ->
    In (g', r, fr) (gstep sd (tbl_of sd) cs ss g c) ->
    r = RRefused -> fr = [] /\ g_fl g' = g_fl g.
Proof. exact refusal_is_silent. Qed.
Print Assumptions C06_refusal_is_silent.
