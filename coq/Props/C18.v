(* C18 -- Event listeners run once, in order, and their edits take effect.
   This file holds only the property theorems; each is closed by `exact` of a lemma proved in
   Proofs/C18Proofs.v, or follows in a line or two from a more general one there or from the
   evaluation of a table, and is followed by Print Assumptions.  Non-vacuity examples: Proofs/C18Examples.v
   (required here so that they are checked with the theorems).

   Vocabulary (Model/Events.v): `dispatch ls ev` is _Dispatch.__dispatch__ on the listener list `ls`;
   its result holds the ids of the listeners invoked (d_log), the refused guarded assignments
   (d_errs) and the returned payload tuple or the escaping exception (d_out).  `l_stops c l`: the
   listener leaves the event interrupted or lets an exception escape (computed from the class and
   its statements).  `upto p ls`: the prefix of ls up to and including the first element with p.
   `wf_event ev` / `ev_int ev = false`: what _Event.__init__ establishes (every annotated field set,
   not interrupted); C18_hook_call_is_dispatch shows every hook call made by the library starts
   from such an event. *)
From Coq Require Import ZArith List Bool String.
From GV Require Import Lib.Str Gen.Facts Gen.FactsC18 Model.Events Proofs.C18Proofs Proofs.C18Examples.
Import ListNotations.
Open Scope Z_scope.

(* (1) for ALL listener lists: the listeners invoked are exactly the registered ones up to and
   including the first that stops the loop, each once, in registration order *)
Theorem C18_invoked_prefix :
  forall ls ev, wf_event ev = true -> ev_int ev = false ->
  d_log (dispatch ls ev) = map l_id (upto (l_stops (ev_cls ev)) ls).
Proof. intros ls ev W I. destruct (dispatch_spec _ ls ev (conj eq_refl W) I) as (L & _). exact L. Qed.
Print Assumptions C18_invoked_prefix.

(* (1') what `upto` means: either nobody before the last element stops and the whole list is taken,
   or the list splits at the first stopper x: everything before x does not stop, x does, and
   nothing after x is taken *)
Theorem C18_upto_is_first_stopper :
  forall (p : listener -> bool) ls,
  (upto p ls = ls /\ forallb (fun x => negb (p x)) (removelast ls) = true)
  \/ (exists pre x post, ls = pre ++ x :: post /\ upto p ls = pre ++ [x] /\ p x = true
                          /\ forallb (fun y => negb (p y)) pre = true).
Proof. exact (@upto_spec listener). Qed.
Print Assumptions C18_upto_is_first_stopper.

(* (2) what the hook returns: the exception of the invoked listener that raised, otherwise the
   payload fields of the event after the invoked listeners ran one after the other *)
Theorem C18_returned_payload :
  forall ls ev, wf_event ev = true -> ev_int ev = false ->
  d_out (dispatch ls ev) =
    match first_raise (ev_cls ev) (upto (l_stops (ev_cls ev)) ls) with
    | Some e => inr e
    | None => payload_out (effect (upto (l_stops (ev_cls ev)) ls) ev)
    end.
Proof.
  intros ls ev W I. destruct (dispatch_spec _ ls ev (conj eq_refl W) I) as (_ & Out & _). exact Out.
Qed.
Print Assumptions C18_returned_payload.

(* (2') field by field: when no listener lets an exception escape, each returned payload element is
   the composition, in order, of the writes the invoked listeners made to that field *)
Theorem C18_payload_is_composition_of_writes :
  forall ls ev, wf_event ev = true -> ev_int ev = false -> class_ok (ev_cls ev) = true ->
  (forall l, In l ls -> l_raises (ev_cls ev) l = None) ->
  d_out (dispatch ls ev) =
    inl (map (fun p => final_value p (acts_of (upto (l_stops (ev_cls ev)) ls)) (field_or_nil ev p))
             (ec_payload (ev_cls ev))).
Proof.
  intros ls ev W I CO NR. apply (dispatch_fieldwise _ ls ev (conj eq_refl W) I CO).
  intros l Hl. exact (NR l (In_upto _ _ _ Hl)).
Qed.
Print Assumptions C18_payload_is_composition_of_writes.

(* (2'') last write wins: with constant assignments only, the composition is the value of the last
   assignment to the field, or the value the library passed in *)
Theorem C18_last_write_wins :
  forall f acts v0, no_app acts = true ->
  final_value f acts v0 = match last_set f acts with Some v => v | None => v0 end.
Proof. exact last_write_wins. Qed.
Print Assumptions C18_last_write_wins.

(* (3) the listeners the property talks about (they call interrupt() and assign payload fields):
   invoked = up to and including the first that calls interrupt(); nothing is refused; the payload
   is the composition of their assignments *)
Theorem C18_plain_listeners :
  forall ls ev, wf_event ev = true -> ev_int ev = false -> class_ok (ev_cls ev) = true ->
  forallb (plain (ev_cls ev)) ls = true ->
  d_log (dispatch ls ev) = map l_id (upto calls_interrupt ls)
  /\ d_errs (dispatch ls ev) = []
  /\ d_out (dispatch ls ev) =
       inl (map (fun p => final_value p (acts_of (upto calls_interrupt ls)) (field_or_nil ev p))
                (ec_payload (ev_cls ev))).
Proof. exact dispatch_plain. Qed.
Print Assumptions C18_plain_listeners.

(* (4) listeners that change nothing (observers, and listeners whose every statement is a refused,
   guarded assignment) all run and the result is the one of the empty list *)
Theorem C18_no_listeners_same_as_inert :
  forall ls ev, ev_int ev = false -> forallb (inert (ev_cls ev)) ls = true ->
  d_log (dispatch ls ev) = map l_id ls /\ d_out (dispatch ls ev) = d_out (dispatch [] ev).
Proof. exact dispatch_inert. Qed.
Print Assumptions C18_no_listeners_same_as_inert.

(* (5) read-only rule: a field that is not in __payload__ cannot be assigned (AttributeError: the
   model's None), and the event is left as it was -- recorded when guarded, escaping otherwise *)
Theorem C18_nonpayload_refused :
  forall ev f v g,
  mem_str f (ec_payload (ev_cls ev)) = false -> zlist_eqb f interrupted_name = false ->
  set_field ev f v = None
  /\ run_action ev (ASet f v g) = (ev, g, if g then None else Some XAttr)
  /\ run_action ev (AApp f v g) = (ev, g, if g then None else Some XAttr).
Proof.
  intros ev f v g Hp Hi. cbn [run_action]. unfold set_field, refuse.
  destruct (field_kind_nonpayload _ _ Hp Hi) as [-> | ->]; destruct g; auto.
Qed.
Print Assumptions C18_nonpayload_refused.

(* (5') ... whereas a payload field takes the value and gives it back *)
Theorem C18_payload_assignable :
  forall ev f v,
  mem_str f (ec_fields (ev_cls ev)) = true -> mem_str f (ec_payload (ev_cls ev)) = true ->
  exists ev', set_field ev f v = Some ev' /\ get_field ev' f = Some v
              /\ ev_cls ev' = ev_cls ev /\ ev_int ev' = ev_int ev.
Proof. exact payload_assign. Qed.
Print Assumptions C18_payload_assignable.

(* (6) add_listener: KeyError (None) exactly for an event class the object has no hook for;
   otherwise the callback is appended to that class's list, the other lists are untouched and the
   identity shadow of the hook is removed *)
Theorem C18_add_listener :
  forall d e l,
  match add_listener d e l with
  | None => hook_for_event (do_hooks d) e = None
  | Some d' =>
      exists h, hook_for_event (do_hooks d) e = Some h
                /\ listeners_of d' e = listeners_of d e ++ [l]
                /\ (forall e', zlist_eqb e e' = false -> listeners_of d' e' = listeners_of d e')
                /\ mem_str (h_meth h) (do_fast d') = false
                /\ do_hooks d' = do_hooks d
  end.
Proof. exact add_listener_spec. Qed.
Print Assumptions C18_add_listener.

(* (6') the listeners a dispatch object runs for an event are its OWN accepted registrations for
   that event, in registration order (objects share nothing) *)
Theorem C18_listeners_are_own_registrations :
  forall regs d e,
  listeners_of (register d regs) e
  = listeners_of d e
    ++ map snd (filter (fun r => zlist_eqb (fst r) e
                                 && is_some (hook_for_event (do_hooks d) (fst r))) regs).
Proof. exact listeners_of_register. Qed.
Print Assumptions C18_listeners_are_own_registrations.

(* (7) the identity fast path: in every dispatch object reachable from Channel's / Server's fresh one
   by any sequence of add_listener calls, calling a hook the way the library calls it gives what
   the method on the class (the slow path) gives *)
Theorem C18_fast_path_agrees :
  forall s regs h pos kw,
  In h (side_hooks s) -> good_call h pos kw = true ->
  call_hook (register (obj_for s) regs) (h_meth h) pos kw
    = call_slow (register (obj_for s) regs) h pos kw.
Proof.
  intros s regs h pos kw. destruct (side_hooks_good s) as [D O].
  exact (fast_path_agrees _ regs D O h pos kw).
Qed.
Print Assumptions C18_fast_path_agrees.

(* (7') no listener registered for the event: nobody is invoked and the hook returns exactly the
   positional arguments it was given *)
Theorem C18_no_listeners_identity :
  forall s regs h pos kw,
  In h (side_hooks s) -> good_call h pos kw = true ->
  listeners_of (register (obj_for s) regs) (h_event h) = [] ->
  call_hook (register (obj_for s) regs) (h_meth h) pos kw
    = HRes {| d_log := []; d_errs := []; d_out := inl pos |}.
Proof.
  intros s regs h pos kw HI GC. destruct (side_hooks_good s) as [D O]. unfold obj_for.
  rewrite (fast_path_agrees _ regs D O h pos kw HI GC).
  exact (call_slow_no_listeners _ h pos kw (hook_good _ O h HI) GC).
Qed.
Print Assumptions C18_no_listeners_identity.

(* (7'') every hook call IS a dispatch over the object's listeners for the hook's event class on an
   event satisfying the hypotheses of (1)-(4), whose payload is the positional arguments *)
Theorem C18_hook_call_is_dispatch :
  forall s regs h pos kw,
  In h (side_hooks s) -> good_call h pos kw = true ->
  exists ev, call_hook (register (obj_for s) regs) (h_meth h) pos kw
               = HRes (dispatch (listeners_of (register (obj_for s) regs) (h_event h)) ev)
             /\ wf_event ev = true /\ ev_int ev = false
             /\ find_class (h_event h) = Some (ev_cls ev) /\ class_ok (ev_cls ev) = true
             /\ payload_out ev = inl pos.
Proof.
  intros s regs h pos kw HI GC. destruct (side_hooks_good s) as [D O]. unfold obj_for.
  rewrite (fast_path_agrees _ regs D O h pos kw HI GC).
  exact (call_slow_is_dispatch _ h pos kw (hook_good _ O h HI) GC).
Qed.
Print Assumptions C18_hook_call_is_dispatch.

(* (8) the source as it is now (tables regenerated from /repo on every run): every event class has
   payload within its annotated fields; the mutable fields are the ones the property lists; the ten
   event types are the five client and five server ones; every hook method passes its payload
   positionally, in __payload__ order, and constructs the event with field=parameter *)
Theorem C18_source_facts :
  forallb class_ok classes = true
  /\ (payload_of_class "SendRequest" = Some [s2z "metadata"]
      /\ payload_of_class "SendMessage" = Some [s2z "message"]
      /\ payload_of_class "RecvMessage" = Some [s2z "message"]
      /\ payload_of_class "RecvInitialMetadata" = Some [s2z "metadata"]
      /\ payload_of_class "RecvTrailingMetadata" = Some [s2z "metadata"]
      /\ payload_of_class "RecvRequest" = Some [s2z "metadata"; s2z "method_func"]
      /\ payload_of_class "SendInitialMetadata" = Some [s2z "metadata"]
      /\ payload_of_class "SendTrailingMetadata" = Some [s2z "metadata"])
  /\ (same_names (map h_event (side_hooks Client))
             [s2z "SendRequest"; s2z "SendMessage"; s2z "RecvMessage"; s2z "RecvInitialMetadata";
              s2z "RecvTrailingMetadata"] = true
      /\ same_names (map h_event (side_hooks Server))
             [s2z "RecvRequest"; s2z "RecvMessage"; s2z "SendMessage"; s2z "SendInitialMetadata";
              s2z "SendTrailingMetadata"] = true)
  /\ (forallb hook_ok hooks = true
      /\ hooks_distinct (side_hooks Client) = true /\ hooks_distinct (side_hooks Server) = true
      /\ forallb hook_ok (side_hooks Client) = true /\ forallb hook_ok (side_hooks Server) = true).
Proof. split; [|split; [|split; [|exact hooks_ok]]]; vm_compute; repeat split; reflexivity. Qed.
Print Assumptions C18_source_facts.

(* (9) use sites: every hook call in client.py / server.py is awaited, passes the payload
   positionally and the other fields by keyword, destructures the returned tuple into as many
   names as the payload has, and every one of these names is read later by the operation the
   property names (encode_metadata / send_message / return / stored as initial or trailing
   metadata / the stream handed to the handler / the handler being invoked); every hook of both
   sides has such a site *)
Theorem C18_hook_results_consumed :
  (forall s, In s hook_sites -> site_ok s = true)
  /\ side_covered Client = true /\ side_covered Server = true.
Proof. split; [|split]; [apply forallb_forall|..]; vm_compute; reflexivity. Qed.
Print Assumptions C18_hook_results_consumed.
