(* C17 -- Keepalive detects a dead peer in bounded time and never drops a live one.
   This file holds only the property theorems; each is closed by a lemma proved in
   Proofs/C17Proofs.v, by a line or two from such lemmas, or by evaluation of a generated table,
   and followed by Print Assumptions.  Model: Model/Keepalive.v (timed automaton
   on a Z clock, one tick = 2^-20 s).  `run c t0 evs` = (final state, log) of the connection made at
   instant t0 under configuration c after the events evs; the theorems quantify over ALL
   configurations accepted by Configuration's validators (cfg_ok), all t0 and ALL event lists
   (timer firings with every tie order, acknowledgements, data/headers sent, streams opening and
   closing, external connection loss).  Non-vacuity examples: Proofs/C17Examples.v. *)
From Coq Require Import ZArith List Bool String.
From GV Require Import Lib.Str Gen.FactsC17 Model.Keepalive Proofs.C17Proofs.
Import ListNotations.
Open Scope Z_scope.

(* (1) SAFETY.  If every PING is followed by an acknowledgement that arrives strictly less than
   keepalive_timeout after it was sent (or the run ends before that deadline), the close timer never
   fires, and unless the connection is lost for another reason it stays open.
   (example: ex_live_hypothesis; boundary: ex_ack_at_timeout_before_timer / _after_timer) *)
Theorem C17_live_peer_never_dropped :
  forall c, cfg_ok c -> forall t0 evs,
    acked_in_time (k_timeout c) (snd (run c t0 evs)) (now (fst (run c t0 evs))) ->
    (forall t, ~ In (t, IClose) (snd (run c t0 evs))) /\
    (has ILost (snd (run c t0 evs)) = false -> closed (fst (run c t0 evs)) = false).
Proof. exact live_peer_never_dropped. Qed.
Print Assumptions C17_live_peer_never_dropped.

(* (2) "if a ping stays unanswered for keepalive_timeout the connection is closed" -- FULL STATEMENT,
   FALSE of the code: acknowledgements answer pings in order, so with at most k acknowledgements in
   the whole run the (k+1)-th ping (sent at p) is unanswered; the claim is that the close timer has
   fired by p + timeout.  Refuted: the acknowledgement of an OLDER ping clears the close timer, which
   is the only watchdog of the newer ping too (witness wit_cfg/wit_evs: keepalive 10 s, timeout 20 s,
   pings at 10 s and 20 s, ack of the first at 25 s, then silence; the witness is replayed on the
   real code by harness/drive_C17.py, corpus/C17/old_ack_clears_watchdog.json). *)
Theorem C17_unanswered_ping_closes_refuted :
  ~ (forall c t0 evs k p, cfg_ok c ->
       nth_error (ping_times (snd (run c t0 evs))) k = Some p ->
       count_item IAck (snd (run c t0 evs)) <= Z.of_nat k ->
       has ILost (snd (run c t0 evs)) = false ->
       p + k_timeout c < now (fst (run c t0 evs)) ->
       exists d, d <= p + k_timeout c /\ In (d, IClose) (snd (run c t0 evs))).
Proof. exact unanswered_ping_closes_refuted. Qed.
Print Assumptions C17_unanswered_ping_closes_refuted.

(* (2') ... and with the ping budget used up (the default max_pings_without_data = 2) the dead peer
   is NEVER detected while the application sends nothing: for every continuation made of clock
   ticks only there is no further PING and no close. *)
Theorem C17_dead_peer_never_detected_refuted :
  exists c t0 evs p,
    cfg_ok c /\ k_enabled c = true /\ k_permit c = true /\
    nth_error (ping_times (snd (run c t0 evs))) 1 = Some p /\
    count_item IAck (snd (run c t0 evs)) = 1 /\
    forall more, Forall is_tick more ->
      closed (fst (run c t0 (evs ++ more))) = false /\
      has IClose (snd (run c t0 (evs ++ more))) = false /\
      ping_times (snd (run c t0 (evs ++ more))) = ping_times (snd (run c t0 evs)).
Proof. exact dead_peer_never_detected. Qed.
Print Assumptions C17_dead_peer_never_detected_refuted.

(* (2'') PARTIAL (the hypothesis that excludes the defect: no acknowledgement of ANY ping arrives
   after this ping): a ping sent at p after which the log holds no acknowledgement and no external
   close leads to the close timer firing at some d in [p, p + timeout].
   (example: ex_dead_unanswered; default limits: ex_server_silent_peer) *)
Theorem C17_unanswered_ping_closes_partial :
  forall c, cfg_ok c -> forall t0 evs l1 p l2,
    snd (run c t0 evs) = l1 ++ (p, IPing) :: l2 ->
    has IAck l2 = false -> has ILost l2 = false ->
    p + k_timeout c < now (fst (run c t0 evs)) ->
    exists d, p <= d <= p + k_timeout c /\ In (d, IClose) l2.
Proof. exact unanswered_ping_closes. Qed.
Print Assumptions C17_unanswered_ping_closes_partial.

(* (3) DETECTION.  The peer is silent from sigma on (no acknowledgement at an instant >= sigma), the
   connection is not lost otherwise, and the ping timer's firing in [sigma, sigma + time] is not
   suppressed by _is_need_send_ping (`quiet`: no ISkip there; the three tests are the side
   conditions of the property text: a call in flight or permit_without_calls; budget not used up;
   minimum interval elapsed).  Then the connection is closed by sigma + time + timeout.  This holds
   also when an acknowledgement of an older ping cancelled the close timer before sigma.
   (example: ex_dead_hypotheses) *)
Theorem C17_silent_peer_detected :
  forall c, cfg_ok c -> forall sigma t0 evs,
    k_enabled c = true -> t0 <= sigma ->
    quiet c sigma (snd (run c t0 evs)) ->
    sigma + k_time c + k_timeout c < now (fst (run c t0 evs)) ->
    exists d, d <= sigma + k_time c + k_timeout c /\ In (d, IClose) (snd (run c t0 evs)).
Proof. exact silent_peer_detected. Qed.
Print Assumptions C17_silent_peer_detected.

(* (3') with no limits configured (pings permitted without calls, no budget, minimum interval not
   above keepalive_time) the ping timer never skips, so detection is unconditional *)
Theorem C17_silent_peer_detected_unlimited :
  forall c, cfg_ok c -> forall sigma t0 evs,
    k_enabled c = true -> k_permit c = true -> k_maxp c = 0 -> k_minint c <= k_time c ->
    t0 <= sigma ->
    (forall a, In (a, IAck) (snd (run c t0 evs)) -> a < sigma) ->
    has ILost (snd (run c t0 evs)) = false ->
    sigma + k_time c + k_timeout c < now (fst (run c t0 evs)) ->
    exists d, d <= sigma + k_time c + k_timeout c /\ In (d, IClose) (snd (run c t0 evs)).
Proof.
  intros c Hok sigma t0 evs Hen Hp Hm Hi Ht0 Ha Hl.
  apply (silent_peer_detected c Hok sigma t0 evs Hen Ht0). repeat split; auto.
  intros q Hq. destruct (unlimited_never_skips c Hok t0 evs q Hp Hm Hi Hq).
Qed.
Print Assumptions C17_silent_peer_detected_unlimited.

(* (4) RATE.  Any two PINGs are at least keepalive_time apart (at most one per period) and at least
   min_sent_ping_interval apart.  (example: ex_budget_log) *)
Theorem C17_pings_spaced :
  forall c, cfg_ok c -> forall t0 evs l1 p1 l2 p2,
    snd (run c t0 evs) = l1 ++ (p1, IPing) :: l2 -> In (p2, IPing) l2 ->
    p1 + k_time c <= p2 /\ p1 + k_minint c <= p2.
Proof. exact pings_spaced. Qed.
Print Assumptions C17_pings_spaced.

(* (4') with a budget configured, any stretch of the log in which no data and no headers were sent
   contains at most max_pings_without_data PINGs *)
Theorem C17_pings_budget :
  forall c, cfg_ok c -> forall t0 evs l1 seg l2,
    k_maxp c <> 0 ->
    snd (run c t0 evs) = l1 ++ seg ++ l2 ->
    forallb (fun x => negb (is_data x)) seg = true ->
    count_item IPing seg <= k_maxp c.
Proof. exact pings_budget. Qed.
Print Assumptions C17_pings_budget.

(* (4'') inbound traffic never resets the budget: Connection.ack (the application consumed received
   DATA; flow-control credit / WINDOW_UPDATE goes out) leaves the whole keepalive state unchanged, and
   its log item is not "data sent", so C17_pings_budget bounds the PINGs of every stretch without
   data/headers SENT however much is received in it (example: ex_budget_receiving) *)
Theorem C17_acked_is_inert :
  forall c s, step c s Acked = (s, [(now s, IRecv)]).
Proof. reflexivity. Qed.
Print Assumptions C17_acked_is_inert.

Theorem C17_recv_is_not_data : forall t, is_data (t, IRecv) = false.
Proof. reflexivity. Qed.
Print Assumptions C17_recv_is_not_data.

(* ... tied to the source: EVERY assignment in grpclib/ to ping_count_in_sequence, last_ping_sent,
   the periodic timer and the close timer (found by role; any module, any object; private helpers
   folded into their callers; regenerated on every run): the counter
   is written by _ping (+1), headers_send_process (0), data_send_process (0) and nothing else *)
Theorem C17_keepalive_writers :
  keepalive_writers =
  [ (s2z "ping_count_in_sequence",
     [(s2z "protocol:Connection.PING_CALLBACK", s2z "inc");
      (s2z "protocol:Connection.data_send_process", s2z "zero");
      (s2z "protocol:Connection.headers_send_process", s2z "zero")]);
    (s2z "last_ping_sent", [(s2z "protocol:Connection.PING_CALLBACK", s2z "now")]);
    (s2z "PING_TIMER",
     [(s2z "protocol:Connection.PING_CALLBACK", s2z "arm"); (s2z "protocol:Connection.initialize", s2z "arm")]);
    (s2z "CLOSE_TIMER",
     [(s2z "protocol:Connection.PING_CALLBACK", s2z "arm");
      (s2z "protocol:Connection.ping_ack_process", s2z "none")]) ].
Proof. vm_compute. reflexivity. Qed.
Print Assumptions C17_keepalive_writers.

(* "data sent" is per DATA FRAME: the model's DataSent/HeadersSent stand for one call of
   data_send_process / headers_send_process, and in the source every frame handed to h2
   (Stream.send_data: every chunk of a payload, also when the rest of the payload then stalls under flow
   control; send_headers; send_request) is directly followed by the hook *)
Theorem C17_every_frame_resets :
  forallb site_ok send_sites = true /\
  map (fun x => match x with (f, h, _, _) => (f, h) end) send_sites =
  [(s2z "Stream.send_data", s2z "data_send_process");
   (s2z "Stream.send_headers", s2z "headers_send_process");
   (s2z "Stream.send_request", s2z "headers_send_process")].
Proof. vm_compute. split; reflexivity. Qed.
Print Assumptions C17_every_frame_resets.

(* (5) "every keepalive_time ...": while the connection is open the ping timer fires at
   t0 + j * keepalive_time for every j >= 1; each firing is logged as IPing (a PING was sent) or ISkip
   (fire_ping logs ISkip exactly when need_ping is false) *)
Theorem C17_ping_timer_periodic :
  forall c, cfg_ok c -> forall t0 evs j,
    k_enabled c = true -> closed (fst (run c t0 evs)) = false ->
    1 <= j -> t0 + j * k_time c < now (fst (run c t0 evs)) ->
    In (t0 + j * k_time c, IPing) (snd (run c t0 evs)) \/
    In (t0 + j * k_time c, ISkip) (snd (run c t0 evs)).
Proof. exact ping_timer_periodic. Qed.
Print Assumptions C17_ping_timer_periodic.

(* (6) keepalive_time = None (the client default): keepalive sends and closes nothing *)
Theorem C17_disabled_inert :
  forall c t0 evs, k_enabled c = false ->
    has IPing (snd (run c t0 evs)) = false /\ has ISkip (snd (run c t0 evs)) = false /\
    has IClose (snd (run c t0 evs)) = false.
Proof. exact disabled_inert. Qed.
Print Assumptions C17_disabled_inert.

(* (7) TIE TO THE SOURCE.  need_ping is what the current source text of
   Connection._is_need_send_ping computes: its body, made one condition tree by symbolic execution
   (Gen.FactsC17.need_send_ping_src), evaluates to need_ping, and not to None (an expression that
   raises), for every state and every configuration with numeric limits.  A respelling with the
   same meaning still checks; another operator, operand or constant does not ... *)
Theorem C17_need_ping_is_source :
  forall c s, need_ping_src c s = Some (need_ping c s).
Proof. exact need_ping_is_source. Qed.
Print Assumptions C17_need_ping_is_source.

(* ... and the statement skeletons of initialize, _ping, close, ping_ack_process,
   headers_send_process, data_send_process, process_ping_ack_received are the ones the model was
   transcribed from, and the generated durations count the model's ticks *)
Theorem C17_source_shape :
  src_initialize = expected_initialize /\
  src_ping = expected_ping /\
  src_close = expected_close /\
  src_ping_ack_process = expected_ping_ack_process /\
  src_headers_send_process = [SSet n_count (EConst 0)] /\
  src_data_send_process = [SSet (s2z "last_data_sent") ENow; SSet n_count (EConst 0)] /\
  src_ping_ack_handler = [SCall (s2z "ping_ack_process")] /\
  facts_ticks_per_second = ticks_per_second.
Proof. vm_compute. repeat split; reflexivity. Qed.
Print Assumptions C17_source_shape.

(* (8) CONFIGURATION.  Per-role defaults: server 7200 s / 20 s / calls required / 2 / 300 s;
   client and test: keepalive off *)
Theorem C17_role_defaults :
  default_cfg RServer = Some (mkCfg true (sec 7200) (sec 20) false 2 (sec 300)) /\
  default_cfg RClient = Some (mkCfg false 0 (sec 20) false 2 (sec 300)) /\
  default_cfg RTest = Some (mkCfg false 0 (sec 20) false 2 (sec 300)).
Proof. vm_compute. repeat split; reflexivity. Qed.
Print Assumptions C17_role_defaults.

(* validators: the numeric configurations accepted are exactly cfg_ok *)
Theorem C17_validators :
  forall c fl1 fl2 fl3,
    field_accepts n_time (PNum fl1 (k_time c)) && field_accepts n_timeout (PNum fl2 (k_timeout c)) &&
    field_accepts n_maxp (PNum false (k_maxp c)) && field_accepts n_minint (PNum fl3 (k_minint c))
    = cfg_okb c.
Proof.
  intros c fl1 fl2 fl3. destruct validators as [H1 [_ [H2 [_ [H3 [_ [H4 _]]]]]]].
  rewrite H1, H2, H3, H4. reflexivity.
Qed.
Print Assumptions C17_validators.

Theorem C17_cfg_okb_ok : forall c, cfg_okb c = true <-> cfg_ok c.
Proof. exact cfg_okb_ok. Qed.
Print Assumptions C17_cfg_okb_ok.

(* FINDING: None passes validation for max_pings_without_data and min_sent_ping_interval although
   _is_need_send_ping compares them with numbers (TypeError inside the timer callback, which then
   never re-arms: keepalive silently stops; shown on the real code by the driver) *)
Theorem C17_validators_accept_none_limits :
  field_accepts n_maxp PNone = true /\ field_accepts n_minint PNone = true /\
  field_accepts n_permit PNone = true.
Proof. vm_compute. repeat split; reflexivity. Qed.
Print Assumptions C17_validators_accept_none_limits.
