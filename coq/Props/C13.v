(* C13 -- Metadata round-trips exactly; invalid or reserved metadata never hits the wire.
   This file holds only the property theorems; each is closed by `exact` of a lemma proved in
   Proofs/C13Proofs.v, or follows from one in a few lines, and is followed by Print Assumptions. *)
From Coq Require Import ZArith List Bool String.
From GV Require Import Lib.Str Gen.Facts Model.Base64 Model.Metadata Proofs.C13Proofs.
Import ListNotations.
Open Scope Z_scope.

(* (1) unpadded base64 as grpclib sends it, for every byte string (every length mod 3) *)
Theorem C13_b64_roundtrip :
  forall b, bytes_ok b = true -> decode_bin_value (encode_bin_value b) = Some b.
Proof. exact b64_roundtrip. Qed.
Print Assumptions C13_b64_roundtrip.

(* (1') a sender that pads its base64 *)
Theorem C13_b64_padded_roundtrip :
  forall b, bytes_ok b = true -> decode_bin_value (b64encode b) = Some b.
Proof. intros b Hok. exact (a2b_b64encode b Hok _ []). Qed.
Print Assumptions C13_b64_padded_roundtrip.

(* (2) keys, values, value types, multiplicity and order survive encode -> decode *)
Theorem C13_metadata_roundtrip :
  forall md, md_valid md = true ->
  exists hs, encode_metadata md = Ok hs /\ decode_metadata hs = Ok md.
Proof. exact metadata_roundtrip. Qed.
Print Assumptions C13_metadata_roundtrip.

(* (2') ... also behind the protocol headers of a request / response / trailers block *)
Theorem C13_roundtrip_behind_protocol_headers :
  forall md proto, md_valid md = true ->
  forallb (fun h => reserved (fst h)) proto = true ->
  exists hs, encode_metadata md = Ok hs /\ decode_metadata (proto ++ hs) = Ok md.
Proof.
  intros md proto Hvalid Hproto. destruct (metadata_roundtrip md Hvalid) as (hs & Henc & Hdec).
  exists hs. rewrite (decode_skips_reserved proto hs Hproto). split; assumption.
Qed.
Print Assumptions C13_roundtrip_behind_protocol_headers.

(* (3) total validation: everything that is not valid is refused ... *)
Theorem C13_invalid_rejected :
  forall md, md_typed md = true -> md_valid md = false ->
  exists e, encode_metadata md = Err e.
Proof.
  intros md Htyped Hinvalid. destruct (encode_metadata md) as [hs|e] eqn:Henc; [|exists e; reflexivity].
  destruct (encode_accepts_only_valid md hs Htyped Henc) as [Hvalid _]. congruence.
Qed.
Print Assumptions C13_invalid_rejected.

(* ... and whatever is accepted is safe to put on the wire *)
Theorem C13_wire_safe :
  forall md hs, md_typed md = true -> encode_metadata md = Ok hs -> forallb wire_safe hs = true.
Proof. exact encoded_is_wire_safe. Qed.
Print Assumptions C13_wire_safe.

(* (4) protocol headers never appear in user-visible metadata *)
Theorem C13_decode_hides_protocol_headers :
  forall hs md, decode_metadata hs = Ok md ->
  forallb (fun kv => negb (reserved (fst kv))) md = true.
Proof. exact decode_hides_protocol_headers. Qed.
Print Assumptions C13_decode_hides_protocol_headers.

(* (5) the compiled _KEY_RE / _VALUE_RE of the source, as used (whole-string match), are "one or more
   characters of a set" and the set is exactly the model's character predicate; the reserved names the
   property lists are reserved in the source (Gen.Facts is regenerated from /repo's live modules on every run;
   a regular expression is stated by what it accepts, not by how it is spelled) *)
Theorem C13_source_facts :
  key_re_sem = ([(chars_of key_char, 1, -1)], 0, []) /\
  value_re_sem = ([(chars_of value_char, 1, -1)], 0, []) /\
  (forall c, In c (chars_of key_char) <-> key_char c = true) /\
  (forall c, In c (chars_of value_char) <-> value_char c = true) /\
  mem_str (s2z "te") special = true /\ mem_str (s2z "content-type") special = true /\
  mem_str (s2z "user-agent") special = true.
Proof.
  split; [vm_compute; reflexivity|]. split; [vm_compute; reflexivity|].
  split; [exact in_key_chars|]. split; [exact in_value_chars|].
  repeat split; vm_compute; reflexivity.
Qed.
Print Assumptions C13_source_facts.
