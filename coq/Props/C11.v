(* C11 -- Multiplexed calls are isolated from each other.
   This file holds only the property theorems; each is closed by a lemma proved in Proofs/C11Proofs.v,
   or derived from one in a line or two, and followed by Print Assumptions.  The model is Model/Mux.v: the registry
   EventsProcessor.streams with one component per call, and EventsProcessor.process_* on it.
   All theorems are about ALL states (any number of registered calls) and ALL event lists. *)
From Coq Require Import ZArith List Bool.
From GV Require Import Model.Mux Proofs.C11Proofs Proofs.C11Examples.
Import ListNotations.
Open Scope Z_scope.

(* (1) NON-INTERFERENCE, one step: an event addressed to stream j (peer frame of any kind -- incl.
   RST_STREAM and malformed content -- or local action: register, release, deadline, cancel, read)
   leaves every other component exactly as it was ... *)
Theorem C11_stream_event_changes_only_its_call :
  forall s e j i, addr e = Some j -> i <> j -> project i (step s e) = project i s.
Proof. exact addressed_event_local. Qed.
Print Assumptions C11_stream_event_changes_only_its_call.

(* ... leaves the connection-level part unchanged when it is a peer frame (the one exception: HEADERS
   opening a stream towards a client are refused and released at once, and release_stream sets the
   stream_close_waiter flag -- covered by the next theorem) ... *)
Theorem C11_peer_stream_event_leaves_connection :
  forall s e j, addr e = Some j -> is_h2 e = true ->
  c_side (st_conn s) = Server \/ is_request e = false ->
  st_conn (step s e) = st_conn s.
Proof.
  intros s e j Ha Hh Hq. rewrite st_conn_step, Ha. cbn zeta.
  rewrite h2_event_no_slot by assumption. reflexivity.
Qed.
Print Assumptions C11_peer_stream_event_leaves_connection.

(* ... and in every case (local actions included) it can at most set the stream_close_waiter wake-up
   flag (release_stream), which no step ever reads *)
Theorem C11_local_action_leaves_connection :
  forall s e j, addr e = Some j ->
  st_conn (step s e) = st_conn s \/
  st_conn (step s e) = mkConn (c_side (st_conn s)) (c_closed (st_conn s)) (c_write_ready (st_conn s)) true.
Proof. exact local_action_conn. Qed.
Print Assumptions C11_local_action_leaves_connection.

(* (2) a connection-level event that is not fatal (conn WINDOW_UPDATE, SETTINGS, PING, unknown frames,
   pause/resume ...) only sets window wake-up flags: every call is left as it was, or as it was with
   window_updated set; the connection stays open *)
Theorem C11_connection_event_sets_flags_only :
  forall s e i c, addr e = None -> fatal e = false -> project i s = Some c ->
  project i (step s e) = Some c \/ project i (step s e) = Some (set_wu true c).
Proof.
  intros s e i c Ha Hf Hp. rewrite project_step, Hp. unfold react. rewrite Ha. cbn [option_map].
  destruct (bcast_flags_only (st_conn s) e c Hf) as [->| ->]; [left|right]; reflexivity.
Qed.
Print Assumptions C11_connection_event_sets_flags_only.

Theorem C11_nonfatal_event_keeps_connection_open :
  forall s e, fatal e = false ->
  c_closed (st_conn (step s e)) = c_closed (st_conn s) /\ c_side (st_conn (step s e)) = c_side (st_conn s).
Proof.
  intros s e Hf. destruct (step_side_closed s e) as [Hs Hc].
  rewrite Hf, orb_false_r in Hc. split; assumption.
Qed.
Print Assumptions C11_nonfatal_event_keeps_connection_open.

(* (3) the events that can affect a call they are not addressed to are EXACTLY the connection-fatal
   ones: ConnectionTerminated (GOAWAY), h2 ProtocolError, connection_lost, Channel.close *)
Theorem C11_fatal_set_exact :
  forall e,
  fatal e = true <->
  exists s i, addr e <> Some i /\
              option_map strip (project i (step s e)) <> option_map strip (project i s).
Proof. exact fatal_exactly. Qed.
Print Assumptions C11_fatal_set_exact.

(* (4) every history: deleting all events addressed to OTHER streams (their frames, their failures,
   their local actions) changes neither call i nor the connection core -- exact equality *)
Theorem C11_other_calls_invisible :
  forall i es s,
  project i (run es s) = project i (run (filter (relevant i) es) s) /\
  conn_core (st_conn (run es s)) = conn_core (st_conn (run (filter (relevant i) es) s)).
Proof.
  intros i es s.
  apply (simulation_filter (sim_ok i)); [auto | apply sim_refl].
Qed.
Print Assumptions C11_other_calls_invisible.

(* (5) every history without a fatal event: call i ends as if its own events had been the only ones,
   modulo the window wake-up flag *)
Theorem C11_call_as_if_alone :
  forall i es s,
  forallb (fun e => negb (fatal e)) es = true ->
  option_map strip (project i (run es s)) =
  option_map strip (project i (run (filter (addressed i) es) s)).
Proof. exact interleaving_projection. Qed.
Print Assumptions C11_call_as_if_alone.

(* (6) the same for interleavings given as a merge: es is ANY interleaving of the strands ls (each
   strand keeps its order), strand k holds the events of call i, the other strands hold events of
   other calls and non-fatal connection events *)
Theorem C11_every_interleaving :
  forall ls es k i s,
  Merge ls es ->
  (forall e, In e (nth k ls []) -> addr e = Some i) ->
  (forall k' e, k' <> k -> In e (nth k' ls []) -> addr e <> Some i /\ fatal e = false) ->
  option_map strip (project i (run es s)) = option_map strip (project i (run (nth k ls []) s)).
Proof.
  intros ls es k i s HM _ Hoth.
  apply (simulation_merge (simw_ok i) ls es k HM Hoth), simw_refl.
Qed.
Print Assumptions C11_every_interleaving.

(* (7) failure of a subset: ANY sequence fs of things happening to call j (RST_STREAM either way,
   deadline, cancel, release, malformed headers/trailers, more data ...) inserted ANYWHERE leaves the
   other calls and the connection core exactly as without it *)
Theorem C11_failure_contained :
  forall es1 fs es2 s j,
  (forall e, In e fs -> addr e = Some j) ->
  conn_core (st_conn (run (es1 ++ fs ++ es2) s)) = conn_core (st_conn (run (es1 ++ es2) s)) /\
  forall i, i <> j -> project i (run (es1 ++ fs ++ es2) s) = project i (run (es1 ++ es2) s).
Proof. exact failure_contained. Qed.
Print Assumptions C11_failure_contained.

(* (8) a spurious wake-up of a blocked sender (window still <= 0, or transport still paused) is a
   no-op: nothing is emitted, the sender waits again, only its own wake-up flag is cleared *)
Theorem C11_spurious_wakeup_noop :
  forall wr window mf rem c,
  window <= 0 ->
  let '(c', a) := sender_wake wr window mf rem c in
  strip c' = strip c /\ frames_of a = [] /\ (a = SWaitWriteReady \/ a = SWaitWindow).
Proof. exact spurious_wakeup_noop. Qed.
Print Assumptions C11_spurious_wakeup_noop.

(* ... and a receiver is never woken by anything but its own stream's events or a fatal event *)
Theorem C11_receiver_not_woken_by_others :
  forall s e i, addr e <> Some i -> fatal e = false ->
  option_map recv_ready (project i (step s e)) = option_map recv_ready (project i s).
Proof.
  intros s e i Ha Hf. apply foreign_event_observe; [exact recv_ready_strip | split; assumption].
Qed.
Print Assumptions C11_receiver_not_woken_by_others.

(* (9) tolerated frames (PING, PING ack, PRIORITY, SETTINGS ack, every event class without a
   processor: unknown frame types, ALTSVC, 1xx, push) change nothing, raise nothing, and -- D11 --
   do not cost the other calls the rest of the read they arrive in *)
Theorem C11_tolerated_frames_noop :
  forall s e, tolerated e = true -> step_r s e = mkSres s [] false.
Proof. exact tolerated_noop. Qed.
Print Assumptions C11_tolerated_frames_noop.

Theorem C11_tolerated_frame_in_batch :
  forall es1 e es2 s acc, tolerated e = true ->
  run_batch (es1 ++ e :: es2) s acc = run_batch (es1 ++ es2) s acc.
Proof. exact tolerated_in_batch. Qed.
Print Assumptions C11_tolerated_frame_in_batch.

(* (10) nothing leaves process(): no event, in no state, on either side lets an exception out of the
   connection's input path (D11, D21 and the KeyError of Handler.cancel are repaired), so one read is just
   a run and never loses its tail *)
Theorem C11_never_raises : forall s e, raises s e = false.
Proof. exact never_raises. Qed.
Print Assumptions C11_never_raises.

Theorem C11_batches_are_runs :
  forall es s acc, fst (fst (run_batch es s acc)) = run es s /\ snd (run_batch es s acc) = false.
Proof. exact run_batch_is_run. Qed.
Print Assumptions C11_batches_are_runs.

(* (11) the registry stays a map: stream ids stay distinct *)
Theorem C11_registry_keys_distinct :
  forall es s, NoDup (keys (st_reg s)) -> NoDup (keys (st_reg (run es s))).
Proof.
  induction es as [|e t IH]; intros s H; cbn [run]; [exact H | apply IH, step_keeps_keys_distinct, H].
Qed.
Print Assumptions C11_registry_keys_distinct.

(* (12) isolation inside one read (one data_received call), full strength, both sides, every read: an
   event that is neither addressed to call i nor fatal does not change what call i gets from that read *)
Theorem C11_read_isolation :
  forall i es1 e es2 s acc,
  addr e <> Some i -> fatal e = false ->
  option_map strip (project i (fst (fst (run_batch (es1 ++ e :: es2) s acc)))) =
  option_map strip (project i (fst (fst (run_batch (es1 ++ es2) s acc)))).
Proof.
  intros i es1 e es2 s acc Ha Hf. rewrite !(proj1 (run_batch_is_run _ _ _)).
  apply (block_isolation i es1 [e]). intros e' [<-|[]]. split; assumption.
Qed.
Print Assumptions C11_read_isolation.
