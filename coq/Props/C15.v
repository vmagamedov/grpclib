(* C15 -- grpc-timeout encoding never lengthens a deadline and stays spec-valid.
   This file holds only the property theorems; each is closed by `exact` of a lemma proved in
   Proofs/C15Proofs.v, by evaluation, or by a line deriving it from such lemmas, and followed by
   Print Assumptions.  Python float = Flocq binary64
   (R64 = real value, fin = is finite), Python int = Z; the threshold/unit/exponent chain and the
   unit table are Gen.Facts (regenerated from grpclib/metadata.py on every run).
   q2r (n, d) = n / d is the exact rational value a wire string stands for (wire_q). *)
From Coq Require Import ZArith List Bool String Reals.
From Flocq Require Import Core IEEE754.BinarySingleNaN IEEE754.Binary IEEE754.Bits.
From GV Require Import Lib.Str Gen.Facts Model.Timeout Proofs.C15Proofs.
From GV Require Proofs.C15Examples.     (* non-vacuity examples, re-checked with the theorems *)
Import ListNotations.
Open Scope R_scope.
Set Printing Width 400.    (* one axiom per line in the Print Assumptions transcript *)

(* (0) the constants of the model are the ones in the source.  _TIMEOUT_RE as compiled and as used (mode 0 =
   the whole string must match): 1..8 characters of [0-9] (group 1) then one of the unit letters (group 2);
   the model's recogniser timeout_re_match spells the digit class and the count out and takes only the
   unit letters from `units`, so a change of either in the source breaks this equality, not the model *)
Theorem C15_source_facts :
  timeout_re_sem = ([([48; 49; 50; 51; 52; 53; 54; 55; 56; 57], 1, 8);
                      ([72; 77; 83; 109; 110; 117], 1, 1)], 0, [(0, 1); (1, 2)])%Z /\
  unit_chars = s2z "HMSmun" /\
  units = [(72, UInt 3600); (77, UInt 60); (83, UInt 1);
           (109, UPow10Neg 3); (117, UPow10Neg 6); (110, UPow10Neg 9)]%Z /\
  grpc_timeout_name = s2z "grpc-timeout".
Proof. vm_compute. repeat split. Qed.
Print Assumptions C15_source_facts.

(* (0') the chain of encode_timeout as extracted from the source: thresholds 10, 0.01, 0.00001
   (the exact values of the float literals), units S m u n, exponents 0 3 6 9 *)
Theorem C15_chain_of_source : forall t,
  encode_timeout t =
  if py_gt_q t 10 1 then enc_branch t 83 0
  else if py_gt_q t 5764607523034235 576460752303423488 then enc_branch t 109 3
  else if py_gt_q t 5902958103587057 590295810358705651712 then enc_branch t 117 6
  else enc_branch t 110 9.
Proof. exact encode_unfold. Qed.
Print Assumptions C15_chain_of_source.

(* (0'') the float literals of the chain (their IEEE bits as the running parser produced them) have
   exactly the rational values the comparisons of the model use *)
Theorem C15_threshold_bits :
  map (fun e => match e with (n, d, b, _, _) =>
                  if (b =? -1)%Z then Some Eq else cmp_float_q (b64_of_bits b) n d end)
      encode_timeout_chain = [Some Eq; Some Eq; Some Eq].
Proof. vm_compute. reflexivity. Qed.
Print Assumptions C15_threshold_bits.

(* (1) every float in [0, 99999999]: the output is 1-8 digits and a unit of HMSmun, its exact value
   is more than 0.9 t (or within 1 ns of t), and it exceeds t by less than 2^-52 * t *)
Theorem C15_float_encoding :
  forall t : f64, fin t = true -> 0 <= R64 t <= 99999999 ->
  exists s q,
    encode_timeout (PyFloat t) = Ok s /\ in_grammar s /\ wire_q s = Some q /\
    (9 / 10 * R64 t < q2r q \/ R64 t - q2r q < 1 / 1000000000) /\
    (q2r q <= R64 t \/ q2r q - R64 t < R64 t * bpow radix2 (-52)).
Proof. exact enc_float_spec. Qed.
Print Assumptions C15_float_encoding.

(* (1') ... and the decoder accepts it *)
Theorem C15_float_encoding_decodes :
  forall t : f64, fin t = true -> 0 <= R64 t <= 99999999 ->
  exists s v, encode_timeout (PyFloat t) = Ok s /\ in_grammar s /\
              decode_timeout s = Ok v /\ finnum v = true.
Proof.
  intros t Ht Hr. destruct (enc_float_spec t Ht Hr) as (s & q & He & Hg & _).
  destruct (decode_grammar_ok s Hg) as (v & Hv & Hf). exists s, v. auto.
Qed.
Print Assumptions C15_float_encoding_decodes.

(* (2) FULL STATEMENT, FALSE OF THE CODE (defect D14, kept as a known finding):
     forall t, fin t = true -> 0 <= R64 t <= 99999999 ->
     forall s q, encode_timeout (PyFloat t) = Ok s -> wire_q s = Some q -> q2r q <= R64 t.
   Refuted by t = 0.013 (0x3F8A9FBE76C8B439): 0.013 * 1000 rounds up to 13.0, so '13m' is sent,
   which is 5.6e-19 s more than t. *)
Theorem C15_never_lengthens_refuted :
  exists t : f64, fin t = true /\ 0 <= R64 t <= 99999999 /\
    exists s q, encode_timeout (PyFloat t) = Ok s /\ wire_q s = Some q /\ R64 t < q2r q.
Proof. exact never_lengthens_refuted. Qed.
Print Assumptions C15_never_lengthens_refuted.

(* (2') what is true instead: the excess is below 2^-52 * t (the rounding of the one float
   product) -- last conjunct of (1) -- and above 10 s, where no product is formed, there is none *)
Theorem C15_never_lengthens_partial :
  forall t : f64, fin t = true -> 10 < R64 t <= 99999999 ->
  exists s q, encode_timeout (PyFloat t) = Ok s /\ wire_q s = Some q /\
              q2r q <= R64 t /\ R64 t - q2r q < 1.
Proof. exact enc_float_seconds. Qed.
Print Assumptions C15_never_lengthens_partial.

(* (3) every int in [0, 99999999]: well-formed and exact (neither lengthened nor shortened) *)
Theorem C15_int_encoding :
  forall z : Z, (0 <= z <= 99999999)%Z ->
  exists s q, encode_timeout (PyInt z) = Ok s /\ in_grammar s /\ wire_q s = Some q /\
              q2r q = IZR z.
Proof. exact enc_int_spec. Qed.
Print Assumptions C15_int_encoding.

(* (4) the decoder accepts the grammar with the right scale: H M S give the exact int product,
   m u n give int * float(10 ** -k), which is within 2^-51 (relative) of the exact value *)
Theorem C15_decode_accepts :
  forall ds u a b,
  (1 <= List.length ds <= 8)%nat -> Forall (fun c => 48 <= c <= 57)%Z ds ->
  In (u, (a, b)) grammar_scale ->
  let N := parse_dec ds in
  wire_q (ds ++ [u]) = Some (N * a, b)%Z /\
  exists v, decode_timeout (ds ++ [u]) = Ok v /\
    ((b = 1)%Z -> v = PyInt (N * a)) /\
    ((b <> 1)%Z -> exists f, v = PyFloat f /\ fin f = true /\
        Rabs (R64 f - IZR N / IZR b) <= IZR N / IZR b * bpow radix2 (-51)).
Proof. exact decode_accepts. Qed.
Print Assumptions C15_decode_accepts.

(* (5) ... and nothing else: every other string (all code-point lists) raises ValueError *)
Theorem C15_decode_total :
  forall s : list Z,
  (in_grammar s /\ exists v, decode_timeout s = Ok v /\ finnum v = true) \/
  (~ in_grammar s /\ decode_timeout s = Err ValueError).
Proof. exact decode_total. Qed.
Print Assumptions C15_decode_total.

(* (6) several grpc-timeout headers: the smallest decoded value governs; none -> no deadline;
   any value outside the grammar -> ValueError *)
Theorem C15_min_over_headers :
  forall hs,
  let vs := timeout_values hs in
  (vs = [] -> from_headers_timeout hs = Ok None) /\
  (Exists (fun v => ~ in_grammar v) vs -> from_headers_timeout hs = Err ValueError) /\
  (vs <> [] -> Forall in_grammar vs ->
   exists m, from_headers_timeout hs = Ok (Some m) /\
             (exists v, In v vs /\ decode_timeout v = Ok m) /\
             (forall v x, In v vs -> decode_timeout v = Ok x -> Rnum m <= Rnum x)).
Proof. exact from_headers_min. Qed.
Print Assumptions C15_min_over_headers.

(* (6') exactly the values of the headers named grpc-timeout take part *)
Theorem C15_header_selection :
  forall hs v, In v (timeout_values hs) <-> In (grpc_timeout_name, v) hs.
Proof. exact timeout_values_spec. Qed.
Print Assumptions C15_header_selection.
