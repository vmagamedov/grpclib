(* C05 -- deadlines bound every operation on both sides and are reported as such.
   Only the property theorems; the lemmas are in Proofs/C05*.v.

   CLIENT (Model/Deadline.v): one call = {now, phase, deadline, timer, wrapper error, tasks}; a task
   runs a path of actions of a GENERATED client operation (Gen.StreamOps.client_ops, regenerated from
   /repo/grpclib/client.py on every run).  `run ops (init n0 dl)` is the state after the schedule
   `ops` (any list of: __aenter__, spawn an operation, run a ready task, the environment completes
   an await, time passes / a due timer fires, a foreign Wrapper.cancel); `op_ok` only demands that
   spawned paths are guarded -- which theorem C05_generated_paths_guarded shows of every path of
   every generated operation.  Clock: Z ticks of 2^-30 s.
   SERVER (Model/ServerDeadline.v): `serve arrival headers handler` in Python floats (C15's model).
   WIRE: C15's float theorems are reused, hence its four standard-library axioms below. *)
From Coq Require Import ZArith List Bool Reals.
From Flocq Require Import Core IEEE754.BinarySingleNaN IEEE754.Binary IEEE754.Bits.
From GV Require Import Lib.Str Gen.Facts Gen.FactsC05 Gen.StreamOps Model.StreamIR Model.StreamSem Model.Timeout
     Model.Deadline Model.ServerDeadline
     Proofs.C15Proofs Proofs.C05Proofs Proofs.C05WireProofs Proofs.C05ServerProofs.
From GV Require Proofs.C05Examples.     (* non-vacuity examples, re-checked with the theorems *)
Import ListNotations.
Open Scope Z_scope.
Set Printing Width 400.

(* (0) every await of every path (both ways at every `if`) of every generated client operation,
   and of the hand-modelled Stream.__aexit__, happens inside `with self._wrapper` *)
Theorem C05_generated_paths_guarded :
  forallb guarded_path (all_client_paths client_ops) = true /\
  (forall o p, In o client_opnames -> In p (op_flat_paths client_ops o) -> guarded_path p = true) /\
  (forall p fd, In (p, fd) (aexit_paths client_ops) -> guarded_path p = true).
Proof. exact (conj client_paths_guarded (conj client_op_path_guarded client_aexit_path_guarded)). Qed.
Print Assumptions C05_generated_paths_guarded.

(* (0') ... and so is the concrete path of every call, for all values of the 9 state flags, the
   cardinality, the arguments and the environment's answers: it is one of the paths of (0) *)
Theorem C05_concrete_paths_guarded :
  (forall o cx fl, In o client_opnames -> guarded_path (cpath client_ops o cx fl) = true) /\
  (forall cx fl exc closing, guarded_path (fst (caexit client_ops cx fl exc closing)) = true).
Proof.
  split.
  - intros o cx fl Ho. exact (client_op_path_guarded o _ Ho (client_cpath_in_paths o cx fl Ho)).
  - intros cx fl exc closing. pose proof (client_caexit_in_paths cx fl exc closing) as H.
    destruct (caexit client_ops cx fl exc closing) as [p fd]. exact (client_aexit_path_guarded p fd H).
Qed.
Print Assumptions C05_concrete_paths_guarded.

(* (1) A call with deadline D never blocks past it: for ALL schedules (foreign cancels included),
   in every quiescent state (no task ready, no timer due) with clock >= D inside the call context
   every operation of the call is finished -- none is blocked. *)
Theorem C05_client_never_blocks_past_deadline :
  forall n0 dl ops D, forallb op_ok ops = true ->
  let s := run ops (init n0 dl) in
  ph s = Entered -> dl = Some D -> D <= now s -> quiescent s = true ->
  Forall (fun t => is_done t = true) (tasks s).
Proof. intros n0 dl ops D Hok. exact (never_blocks_past_deadline n0 dl ops Hok D). Qed.
Print Assumptions C05_client_never_blocks_past_deadline.

(* (2) ... no later than the deadline: an operation started by D that has finished, finished at an
   instant <= D, and the clock cannot pass D while such an operation is unfinished. *)
Theorem C05_client_completion_no_later_than_deadline :
  forall n0 dl ops D, forallb op_ok ops = true ->
  let s := run ops (init n0 dl) in
  ph s = Entered -> dl = Some D ->
  forall t, In t (tasks s) -> born t <= D ->
    (forall r a, ts t = Done r a -> a <= D) /\ (D < now s -> is_done t = true).
Proof. intros n0 dl ops D Hok. exact (completion_by_deadline n0 dl ops Hok D). Qed.
Print Assumptions C05_client_completion_no_later_than_deadline.

(* (3) reported as such, never early: without foreign cancels the timer is the only source of
   TimeoutError -- an operation that ended with it ended at an instant >= D; a task carrying a
   pending cancellation exists only at the instant D itself. *)
Theorem C05_client_timeout_only_from_timer :
  forall n0 dl ops, forallb op_ok ops = true -> forallb no_ext ops = true ->
  let s := run ops (init n0 dl) in
  forall t, In t (tasks s) ->
    (forall a, ts t = Done (RRaise KTimeout) a -> exists D, dl = Some D /\ D <= a) /\
    (ts t = Ready true -> dl = Some (now s) /\ werr s = Some KTimeout) /\
    (forall e, werr s = Some e -> e = KTimeout /\ exists D, dl = Some D /\ D <= now s).
Proof. exact timeout_only_from_timer. Qed.
Print Assumptions C05_client_timeout_only_from_timer.

(* (4) the timer fires at exactly D and wakes every blocked operation ... *)
Theorem C05_client_timer_fires_at_deadline :
  forall n0 dl ops T n, forallb op_ok ops = true ->
  let s := run ops (init n0 dl) in
  timer s = Some T -> any_ready s = false -> T <= n ->
  let s' := step s (OTick n) in
  dl = Some T /\ now s' = T /\ werr s' = Some KTimeout /\ timer s' = None /\
  forall i t, nth_error (tasks s) i = Some t -> ts t = Blocked ->
    exists t', nth_error (tasks s') i = Some t' /\ ts t' = Ready true /\ rest t' = rest t.
Proof. intros n0 dl ops T n Hok. exact (timer_fires_at_deadline n0 dl ops Hok T n). Qed.
Print Assumptions C05_client_timer_fires_at_deadline.

(* (4') ... each of which ends with TimeoutError at that very instant (= D) *)
Theorem C05_client_woken_operation_raises_timeout :
  forall n0 dl ops i t, forallb op_ok ops = true -> forallb no_ext ops = true ->
  let s := run ops (init n0 dl) in
  nth_error (tasks s) i = Some t -> ts t = Ready true ->
  dl = Some (now s) /\
  exists t', nth_error (tasks (step s (ORun i))) i = Some t' /\
             ts t' = Done (RRaise KTimeout) (now s).
Proof. intros n0 dl ops i t Hok. exact (cancelled_op_raises_timeout n0 dl ops Hok i t). Qed.
Print Assumptions C05_client_woken_operation_raises_timeout.

(* (5) a call without a timeout has no timer in any reachable state: nothing ever interrupts it *)
Theorem C05_client_no_deadline_no_timer :
  forall n0 ops, forallb op_ok ops = true ->
  let s := run ops (init n0 None) in
  timer s = None /\ timer_due s = false /\
  (forallb no_ext ops = true ->
   werr s = None /\
   forall t, In t (tasks s) -> ts t <> Ready true /\ forall a, ts t <> Done (RRaise KTimeout) a).
Proof. intros n0 ops Hok. exact (no_deadline_no_timer n0 None ops Hok eq_refl). Qed.
Print Assumptions C05_client_no_deadline_no_timer.

(* (6) Channel.request: the earlier of the timeout-derived and the explicit deadline *)
Theorem C05_request_deadline_is_min :
  forall n0 timeout explicit,
  match request_deadline n0 timeout explicit with
  | None => timeout = None /\ explicit = None
  | Some D => (forall t, timeout = Some t -> D <= n0 + t) /\
              (forall d, explicit = Some d -> D <= d) /\
              (timeout = Some (D - n0) \/ explicit = Some D)
  end.
Proof. exact request_deadline_spec. Qed.
Print Assumptions C05_request_deadline_is_min.

(* (7) __aenter__: nothing remaining -> TimeoutError at once (the body never runs, no timer);
   otherwise a timer for exactly D *)
Theorem C05_client_enter :
  (forall n0 D, D <= n0 -> let s := step (init n0 (Some D)) OEnter in
     ph s = EnterFailed /\ werr s = Some KTimeout /\ timer s = None /\ now s = n0) /\
  (forall n0 D, n0 < D -> let s := step (init n0 (Some D)) OEnter in
     ph s = Entered /\ werr s = None /\ timer s = Some D).
Proof.
  split; intros n0 D H; cbn.
  - rewrite (proj2 (Z.leb_le D n0) H). cbn. auto.
  - rewrite (proj2 (Z.leb_gt D n0) H). cbn. auto.
Qed.
Print Assumptions C05_client_enter.

(* (8) the deterministic FIFO scheduler of the correspondence check produces one of the schedules *)
Theorem C05_scheduler_is_a_schedule :
  forall fuel avail horizon specs s,
  forallb (fun sp => guarded_path (s_path sp)) specs = true ->
  forallb op_ok (play_ops fuel avail horizon specs s) = true.
Proof. exact play_ops_ok. Qed.
Print Assumptions C05_scheduler_is_a_schedule.

(* ---- the value on the wire ------------------------------------------------------------------- *)
(* (9) every HEADERS frame of every schedule carries a grpc-timeout computed at an instant c no
   later than the send instant a from the time r remaining at c; the string is spec-valid and its
   value is at most r, up to the rounding of one float product (C15, class D14: excess < 2^-52 r).
   secs r = r * 2^-30; r < 2^53 ticks (97 days). *)
Theorem C05_wire_value_bound :
  forall n0 dl ops, forallb op_ok ops = true ->
  let s := run ops (init n0 dl) in
  forall a c r, In (a, Some (c, r)) (wire s) -> (r < 2 ^ 53)%Z ->
    exists D str q, dl = Some D /\ c <= a /\ r = Z.max 0 (D - c) /\
      hdr_string r = Ok str /\ in_grammar str /\ wire_q str = Some q /\
      (q2r q <= secs r \/ q2r q - secs r < secs r * bpow radix2 (-52))%R.
Proof. exact wire_value_bound. Qed.
Print Assumptions C05_wire_value_bound.

(* (10) FULL STATEMENT, FALSE OF THE CODE (defect D8, kept as a known finding):
     ... In (a, Some (c, r)) (wire s) -> hdr_string r = Ok str -> wire_q str = Some q ->
         exceeds q (D - a) = false            ("the time remaining when the request is sent";
                                               exceeds q l is secs l < q2r q, decided in Z)
   Refuted: deadline 10 s; the header is computed at t = 0 ('10000m'); send_request then waits 6 s
   for a stream slot; the HEADERS leave at t = 6 s, 4 s before the deadline, still saying 10 s. *)
Theorem C05_wire_value_at_send_refuted :
  exists ops D,
    forallb op_ok ops = true /\ forallb no_ext ops = true /\
    let s := run ops (init 0 (Some D)) in
    exists a c r str q,
      In (a, Some (c, r)) (wire s) /\ hdr_string r = Ok str /\ wire_q str = Some q /\
      exceeds q (D - a) = true /\
      a = 6 * S30 /\ c = 0 /\ r = 10 * S30 /\ str = [49; 48; 48; 48; 48; 109] /\ q = (10000, 1000).
Proof. exact wire_value_at_send_refuted. Qed.
Print Assumptions C05_wire_value_at_send_refuted.

(* (10') what holds instead: when send_request did not wait after computing the header (c = a),
   the value is bounded by the time remaining when the HEADERS are sent *)
Theorem C05_wire_value_at_send_partial :
  forall n0 dl ops, forallb op_ok ops = true ->
  let s := run ops (init n0 dl) in
  forall a c r, In (a, Some (c, r)) (wire s) -> (r < 2 ^ 53)%Z -> c = a ->
    exists D str q, dl = Some D /\ hdr_string r = Ok str /\ wire_q str = Some q /\
      (q2r q <= secs (Z.max 0 (D - a)) \/
       q2r q - secs (Z.max 0 (D - a)) < secs (Z.max 0 (D - a)) * bpow radix2 (-52))%R.
Proof.
  intros n0 dl ops Hok s a c r Hin Hr ->.
  destruct (wire_value_bound n0 dl ops Hok a a r Hin Hr)
    as (D & str & q & H1 & _ & -> & H4 & _ & H6 & H7).
  now exists D, str, q.
Qed.
Print Assumptions C05_wire_value_at_send_partial.

(* ---- server ---------------------------------------------------------------------------------- *)
(* (11) source facts (Gen/FactsC05.v, regenerated from server.py / utils.py on every run): the
   handler runs inside the context of start() FIRST and the wrapper itself SECOND (roles, whatever
   the spelling), and DeadlineWrapper.start with nothing remaining cancels the wrapper with a
   TimeoutError, then raises it.  The model's answer for an expired
   deadline is computed from these facts: with `wrapper` entered first the request task would cancel
   itself and a suspending reply path would lose the answer; without the cancel the answer would be
   UNKNOWN (second and third conjunct: the model is sensitive to both). *)
Theorem C05_server_source_facts :
  (handler_with_order = [CMDeadline; CMWrapper] /\ start_expired = [SA_cancel; SA_raise]) /\
  (forall rs, expired_status rs = StDeadline) /\
  (expired_status_of [CMWrapper; CMDeadline] start_expired true = StNoAnswer /\
   expired_status_of [CMWrapper; CMDeadline] start_expired false = StDeadline /\
   (forall rs, expired_status_of handler_with_order [SA_raise] rs = StUnknown)).
Proof.
  exact (conj (conj eq_refl eq_refl) (conj expired_status_deadline expired_status_other_orders)).
Qed.
Print Assumptions C05_server_source_facts.

(* (12) a grpc-timeout value outside the grammar in ANY header: UNKNOWN, handler never started *)
Theorem C05_server_invalid_timeout :
  forall a hs h rs, Exists (fun v => ~ in_grammar v) (timeout_values hs) ->
  serve a hs h rs = {| o_status := StUnknown; o_started := false; o_timer := None;
                    o_cancel_at := None; o_end_at := a |}.
Proof.
  intros a hs h rs H. destruct (from_headers_min hs) as (_ & A & _). unfold serve. now rewrite (A H).
Qed.
Print Assumptions C05_server_invalid_timeout.

(* (13) no grpc-timeout header: no timer, the handler is never interrupted *)
Theorem C05_server_no_header_no_timer :
  forall a hs h rs, timeout_values hs = [] ->
  let o := serve a hs h rs in
  o_timer o = None /\ o_cancel_at o = None /\ o_started o = true /\
  o_status o = final_status h (own_status (h_fin h)) /\ o_end_at o = fadd a (h_dur h).
Proof. exact serve_no_header. Qed.
Print Assumptions C05_server_no_header_no_timer.

(* (14) valid headers (any multiplicity): the SMALLEST value m governs; deadline ts = arrival + m;
   nothing remaining -> DEADLINE_EXCEEDED and the handler never runs; else a timer for
   when = arrival + remaining; a handler finished strictly before `when` is not touched; any other
   sees CancelledError at exactly `when` and the answer is DEADLINE_EXCEEDED whether it honours the
   cancellation or swallows it (and then returns / raises anything) -- unless it had already sent
   its trailers (final_status). *)
Theorem C05_server_deadline :
  forall a hs h rs, timeout_values hs <> [] -> Forall in_grammar (timeout_values hs) ->
  exists m ts,
    from_headers_timeout hs = Ok (Some m) /\
    (exists v, In v (timeout_values hs) /\ decode_timeout v = Ok m) /\
    (forall v x, In v (timeout_values hs) -> decode_timeout v = Ok x -> (Rnum m <= Rnum x)%R) /\
    py_add_float a m = Ok ts /\
    let o := serve a hs h rs in
    match time_remaining ts a with
    | None => o_status o = StDeadline /\ o_started o = false /\ o_timer o = None /\
              o_cancel_at o = None /\ o_end_at o = a
    | Some rem =>
        let when := fadd a rem in
        o_started o = true /\ o_timer o = Some when /\
        (flt (fadd a (h_dur h)) when = true ->
           o_cancel_at o = None /\ o_status o = final_status h (own_status (h_fin h)) /\
           o_end_at o = fadd a (h_dur h)) /\
        (flt (fadd a (h_dur h)) when = false ->
           o_cancel_at o = Some when /\ o_status o = final_status h StDeadline /\
           o_end_at o = match h_cancel h with CHonour => when
                                         | CSwallow extra _ => fadd when extra end)
    end.
Proof. exact serve_deadline. Qed.
Print Assumptions C05_server_deadline.

(* (15) already passed on arrival, WHETHER OR NOT the reply path suspends (rs): a governing value of
   zero at every (finite, non-negative) arrival instant, and any deadline instant not after the
   arrival instant *)
Theorem C05_server_expired_on_arrival :
  (forall a hs h rs m, fin a = true -> (0 <= R64 a)%R ->
     from_headers_timeout hs = Ok (Some m) -> finnum m = true -> Rnum m = 0%R ->
     serve a hs h rs = {| o_status := StDeadline; o_started := false; o_timer := None;
                       o_cancel_at := None; o_end_at := a |}) /\
  (forall a hs h rs m ts, fin a = true -> fin ts = true -> (0 <= R64 ts <= R64 a)%R ->
     from_headers_timeout hs = Ok (Some m) -> py_add_float a m = Ok ts ->
     serve a hs h rs = {| o_status := StDeadline; o_started := false; o_timer := None;
                       o_cancel_at := None; o_end_at := a |}).
Proof. exact (conj serve_zero_timeout serve_expired). Qed.
Print Assumptions C05_server_expired_on_arrival.

(* (16) reported as such: the handler's own TimeoutError (no cancellation by the deadline) is an
   application error (UNKNOWN), and DEADLINE_EXCEEDED is never answered without a grpc-timeout *)
Theorem C05_server_status_truthful :
  (forall a hs h rs, h_fin h = FRaiseTimeout -> h_trailers_first h = false ->
     let o := serve a hs h rs in o_cancel_at o = None -> o_started o = true -> o_status o = StUnknown) /\
  (forall a hs h rs, o_status (serve a hs h rs) = StDeadline -> timeout_values hs <> []).
Proof. exact (conj serve_own_timeout serve_deadline_status_needs_header). Qed.
Print Assumptions C05_server_status_truthful.
