(* C16 -- A channel keeps one live connection, reconnects after loss, reports failures.
   Only the property theorems; each follows in a line or two from lemmas of Proofs/C16Proofs.v or
   Proofs/C16Examples.v and is followed by Print Assumptions.
   Model: Model/Channel.v.  `run ops (init script)` ranges over ALL schedules: every interleaving of new
   calls, task steps, attempt outcomes (scripted per attempt: ok / OSError, deferred / inline),
   connection_lost, GOAWAY, keepalive close, Channel.close(), task cancellation, pause/resume, answers. *)
From Coq Require Import List Bool Arith.
From Coq Require Import ZArith.
From GV Require Import Gen.FactsC16 Model.Channel Proofs.C16Proofs Proofs.C16Examples Proofs.C16Source.
Import ListNotations.
Open Scope nat_scope.

(* (1) never more than one connection attempt in progress (lock holders, and attempts in flight) *)
Theorem C16_one_attempt :
  forall sc ops, attempting (run ops (init sc)) <= 1 /\ attempts_in_flight (run ops (init sc)) <= 1.
Proof. exact one_attempt. Qed.
Print Assumptions C16_one_attempt.

(* (1') the lock is held exactly while a caller is inside the attempt *)
Theorem C16_lock_iff_attempting :
  forall sc ops, let s := run ops (init sc) in locked s = true <-> attempting s = 1.
Proof. exact lock_iff_attempting. Qed.
Print Assumptions C16_lock_iff_attempting.

(* (2) never more than one live (made, not lost, not closing) connection *)
Theorem C16_one_live_connection :
  forall sc ops, live_connections (run ops (init sc)) <= 1.
Proof. intros sc ops. apply inv_live_le1, reach_inv. Qed.
Print Assumptions C16_one_live_connection.

(* (2') a live connection is never orphaned: it is the channel's `_protocol`, or the one just made by the
   pending attempt whose owner has not resumed yet *)
Theorem C16_live_connection_is_held :
  forall sc ops c, let s := run ops (init sc) in conn_live (getc s c) = true ->
  protocol s = Some c \/ exists k, ph (getk s k) = PAttempt (AOk c).
Proof. exact live_is_held. Qed.
Print Assumptions C16_live_connection_is_held.

(* (3) an OSError reaches a caller only from its own failed attempt (`fails` = callers in whose task
   _create_connection raised) ... *)
Theorem C16_failure_reaches_owner_only :
  forall sc ops k, let s := run ops (init sc) in
  ph (getk s k) = PEnd (RExn EOSError) -> In k (fails s).
Proof. exact failure_reaches_owner_only. Qed.
Print Assumptions C16_failure_reaches_owner_only.

(* (3') ... when the owner of a failed attempt resumes it alone gets the OSError, the lock is released and
   handed to the first waiter, no other caller is touched and no attempt starts in that step (any state) *)
Theorem C16_failed_attempt_step :
  forall s k, ph (getk s k) = PAttempt AFail -> cancelp (getk s k) = false ->
  let s' := step s (Run k) in
  ph (getk s' k) = PEnd (RExn EOSError) /\ locked s' = false /\ waiters s' = woken_first (waiters s) /\
  (forall j, j <> k -> getk s' j = getk s j) /\ creates s' = creates s /\ protocol s' = protocol s.
Proof. exact failed_attempt_step. Qed.
Print Assumptions C16_failed_attempt_step.

(* (3'') ... and the waiter the lock was handed to retries: it starts a new attempt *)
Theorem C16_next_holder_retries :
  forall s k, ph (getk s k) = PWait -> cancelp (getk s k) = false -> wlookup k (waiters s) = Some WWoken ->
  connected s = false -> creates (step s (Run k)) = S (creates s).
Proof. exact next_holder_retries. Qed.
Print Assumptions C16_next_holder_retries.

(* (4) FULL statement -- FALSE of the faithful model (and of the code, see notes/C16.md):
       forall s reachable, k in __connect__: what `step s (Run k)` hands to k is alive (good_ret).
   Refutation: the attempt finished (connection c made), connection_lost arrived before the connecting
   task resumed; the task stores and returns the dead protocol and dies of AttributeError. *)
Theorem C16_connect_returns_live_refuted :
  exists sc ops k c, let s := run ops (init sc) in
    ph (getk s k) = PAttempt (AOk c) /\ lost (getc s c) = true /\
    ph (getk (step s (Run k)) k) = PEnd (RExn EAttr) /\ protocol (step s (Run k)) = Some c /\
    ~ good_ret (step s (Run k)) k.
Proof. exact connect_returns_live_refuted. Qed.
Print Assumptions C16_connect_returns_live_refuted.

(* (4 partial) in EVERY state: if the connection made by k's own finished attempt has not died before k
   resumes (`own_conn_alive` -- excludes exactly the window above; vacuous for the fast path and for lock
   waiters), then whatever __connect__ returns to k in this step is neither lost nor closing at this
   instant, and k does not fail with AttributeError *)
Theorem C16_connect_returns_live_partial :
  forall s k, connect_phase (ph (getk s k)) = true -> own_conn_alive s k -> good_ret (step s (Run k)) k.
Proof.
  intros s k CP OA. apply good_ret_view, (vstep_good k _ _ (step_vstep s (Run k))); simpl; rewrite <- getk_ph; auto.
  intros c H. rewrite <- live_getc. exact (OA c H).
Qed.
Print Assumptions C16_connect_returns_live_partial.

(* (5) a connection attempt is started only by a task step that found the channel unconnected, at most
   one per step *)
Theorem C16_create_only_when_unconnected :
  forall s o, creates (step s o) = creates s \/
  (creates (step s o) = S (creates s) /\ connected s = false /\ exists k, o = Run k).
Proof. intros s o. rewrite connected_lives. exact (vstep_creates _ _ _ (step_vstep s o)). Qed.
Print Assumptions C16_create_only_when_unconnected.

(* (5') while the channel is connected callers share the connection: fast path ... *)
Theorem C16_shared_connection_fast :
  forall s k, connected s = true -> ph (getk s k) = PNew -> cancelp (getk s k) = false ->
  let s' := step s (Run k) in
  creates s' = creates s /\ exists c, protocol s = Some c /\
    (ph (getk s' k) = PGot c false \/ ph (getk s' k) = PReg c) /\ conn_live (getc s' c) = true.
Proof. exact shared_connection_fast. Qed.
Print Assumptions C16_shared_connection_fast.

(* ... and a caller that waited for the lock re-checks and takes the connection made meanwhile *)
Theorem C16_shared_connection_waiter :
  forall s k, connected s = true -> ph (getk s k) = PWait -> cancelp (getk s k) = false ->
  wlookup k (waiters s) = Some WWoken ->
  let s' := step s (Run k) in
  creates s' = creates s /\ locked s' = false /\ exists c, protocol s = Some c /\
    (ph (getk s' k) = PGot c false \/ ph (getk s' k) = PReg c) /\ conn_live (getc s' c) = true.
Proof. exact shared_connection_waiter. Qed.
Print Assumptions C16_shared_connection_waiter.

(* (6) after loss / close (any state satisfying the invariants in which the channel is unconnected and no
   call is inside __connect__) the next call opens exactly one new connection and registers on it *)
Theorem C16_reconnect_exactly_once :
  forall s, Inv s -> quiet s -> connected s = false -> hd (OOk, false) (script s) = (OOk, false) ->
  let n := length (callers s) in let c := length (conns s) in
  let s' := run [Start; Run n; Resolve n; Run n] s in
  creates s' = S (creates s) /\ protocol s' = Some c /\ ph (getk s' n) = PReg c /\
  conn_live (getc s' c) = true /\ live_connections s' = 1 /\ locked s' = false /\
  In n (calls (getc s' c)) /\ getk s' n = c_ph (PReg c) new_caller /\ getc s' c = n_calls [n] fresh_conn /\
  length (callers s') = S n /\ length (conns s') = S c.
Proof. exact fresh_call_connects. Qed.
Print Assumptions C16_reconnect_exactly_once.

(* the invariant `Inv` used above holds in every reachable state *)
Theorem C16_invariant_reachable : forall sc ops, Inv (run ops (init sc)).
Proof. exact reach_inv. Qed.
Print Assumptions C16_invariant_reachable.

(* (7) FULL statement -- FALSE (known finding D6): "Channel.close() terminates every call in flight on
   the connection".  A call blocked in protocol.Stream.send_request is not registered; close() never
   reaches it and it stays blocked forever. *)
Theorem C16_close_terminates_all_calls_refuted :
  exists sc ops k c, let s := run ops (init sc) in
    protocol s = Some c /\ ph (getk s k) = PGot c false /\
    let s' := snd (batch s [SChClose]) in
    ph (getk s' k) = PGot c false /\ enabled s' k = false /\ rq s' = [] /\ lost (getc s' c) = true.
Proof. exact close_terminates_all_calls_refuted. Qed.
Print Assumptions C16_close_terminates_all_calls_refuted.

(* (7 partial) in EVERY state close() cancels the wrapper of every REGISTERED call (the hypothesis
   `In k (calls ..)` = the call is in processor.streams, excludes the D6 class) and that call ends with
   StreamTerminatedError at its next step *)
Theorem C16_close_cancels_registered_partial :
  forall s c k, protocol s = Some c -> In k (calls (getc s c)) -> ph (getk s k) = PReg c ->
  let s' := step s ChClose in
  protocol s' = None /\ term (getk s' k) = true /\ ph (getk s' k) = PReg c /\
  ph (getk (step s' (Run k)) k) = PEnd (RExn ETerminated).
Proof. exact close_cancels_registered. Qed.
Print Assumptions C16_close_cancels_registered_partial.

(* the same for connection_lost and GOAWAY *)
Theorem C16_loss_cancels_registered :
  forall s c k, delivered (getc s c) = false -> In k (calls (getc s c)) -> ph (getk s k) = PReg c ->
  term (getk (step s (Lose c)) k) = true /\ ph (getk (step s (Lose c)) k) = PReg c.
Proof. exact loss_cancels_registered. Qed.
Print Assumptions C16_loss_cancels_registered.

Theorem C16_goaway_cancels_registered :
  forall s c k, valid_open s c = true -> In k (calls (getc s c)) -> ph (getk s k) = PReg c ->
  term (getk (step s (GoAway c)) k) = true /\ ph (getk (step s (GoAway c)) k) = PReg c.
Proof. intros s c k V H E. simpl. rewrite V. apply proc_close_terminates; auto. rewrite calls_updc; auto. Qed.
Print Assumptions C16_goaway_cancels_registered.

(* (8) FULL statement -- FALSE: "after close(), until another call is started, the channel holds no live
   connection and no earlier call continues".  close() during an attempt neither aborts the attempt nor
   the connecting call: the closed channel then stores the new connection (not orphaned -- it is
   `_protocol` and later calls reuse it -- but it is held by a channel the user closed). *)
Theorem C16_close_aborts_connecting_calls_refuted :
  exists sc ops k, let s := run ops (init sc) in
    ph (getk s k) = PAttempt (AFlight OOk) /\
    let s2 := run [ChClose; Resolve k; Run k] s in
    ph (getk s2 k) = PReg 0 /\ protocol s2 = Some 0 /\ live_connections s2 = 1 /\ chst s2 = Ready.
Proof. exact close_aborts_connecting_calls_refuted. Qed.
Print Assumptions C16_close_aborts_connecting_calls_refuted.

(* (8 partial) the channel remains usable after close(): when no call is inside __connect__ at close(),
   close() leaves it unconnected, and a fresh call reconnects (exactly one new connection) and completes *)
Theorem C16_usable_after_close_partial :
  forall s, Inv s -> quiet s -> hd (OOk, false) (script s) = (OOk, false) ->
  let n := length (callers s) in let c := length (conns s) in
  let s' := run ([Start; Run n; Resolve n; Run n] ++ [Answer n; Run n]) (step s ChClose) in
  creates s' = S (creates s) /\ protocol s' = Some c /\ ph (getk s' n) = PEnd (ROk c) /\
  conn_live (getc s' c) = true.
Proof.
  intros s _ Q Sc. destruct (chclose_quiet s Q) as (Q0 & Cn0 & Sc0 & Ln0 & Lc0 & Cr0). rewrite <- Sc0 in Sc.
  cbv zeta. rewrite <- Ln0, <- Lc0, <- Cr0. exact (fresh_call_completes _ Q0 Cn0 Sc).
Qed.
Print Assumptions C16_usable_after_close_partial.

(* (9) the FIFO schedules on which model and code are compared are schedules of `step` *)
Theorem C16_fifo_is_schedule :
  forall s b, snd (batch s b) = run (fst (batch s b)) s.
Proof. exact batch_is_run. Qed.
Print Assumptions C16_fifo_is_schedule.

(* (10) what the model assumes about the source holds of /repo as it is now (Gen/FactsC16.v is regenerated on
   every run by tools/facts_C16.py), stated as MEANING, not spelling:
   - the control paths of Channel.__connect__ (private helpers inlined, tests normalised): connected test first,
     fast path without await; re-check after acquiring the lock; exactly one create_connection await, inside the
     lock, no other await; the protocol stored only after a successful attempt; an Exception re-raised to the
     caller with the lock released and nothing stored; the stored attribute returned without re-check;
   - probed on real objects: `connected` = protocol present, handler not closed, connection not closing;
     connection_lost and EVERY GOAWAY (any error code / last_stream_id) terminate the registered streams and close
     the transport, keepalive's Connection.close() only closes the transport; Channel.close() / __aexit__ terminate
     the registered streams, close the transport once and drop the protocol in EVERY state;
   - the two literal rows: close() on a channel that never connected leaves [no protocol held; connected]; two
     Connection.close() give [transport.close() calls; is_closing; any stream terminated], two connection_lost
     after them [all streams terminated; transport.close() calls; connected] *)
Theorem C16_source_as_transcribed :
  connect_paths = exp_connect_paths /\
  connected_by_state = exp_connected_by_state /\
  effects_by_state = exp_effects_by_state /\
  close_by_state = repeat exp_close_row 9 /\
  aexit_by_state = repeat exp_aexit_row 9 /\
  close_without_protocol = [1; 0]%Z /\
  connection_close_twice = [1; 1; 0; 1; 1; 0]%Z.
Proof. vm_compute. repeat split; reflexivity. Qed.
Print Assumptions C16_source_as_transcribed.
