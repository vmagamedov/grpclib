(* C01 -- Messages arrive intact and in order for every size, window and fragmentation.
   This file holds only the property theorems; each is closed by `exact` of a lemma proved in
   Proofs/C01Proofs.v, or by the line or two that derive it from a more general one there, and
   followed by Print Assumptions.

   Vocabulary (Model/RecvBuffer.v, Model/SendChunk.v):
     frame m            = b'\0' + struct.pack('>I', len(m)) + m           (send_message)
     buf                = grpclib.protocol.Buffer  (unacked queue, acked deque, acked_size, eof flag)
     OAdd d a | OEof | ORecv
                        = DataReceived(data=d, flow_controlled_length=a) | StreamEnded |
                          one scheduling of the task that runs recv_message (start a call when idle,
                          resume the suspended read otherwise)
     wf_ops false ops   = every frame has a >= len(d) (padding; a = 0 only for the empty un-padded
                          frame), nothing after END_STREAM
     run ops            = results returned to a consumer that stops at end-of-stream / first exception
     run_raw ops        = results of recv_message calls that go on whatever was returned
     abs_q s            = the unread bytes (deque, then queue)
   and, from Proofs/C01Proofs.v:
     sizes_ok ms        = every message is shorter than 2^32 bytes
     inv s              = acked_size is the length of the deque; the EOF marker, if queued, is last
     prepend_out c r    = the outcome r of a read, with the credits c handed out before its own
     inside_a_frame p   = p is a non-empty proper prefix of the frame of a message
     chunk_ok e         = the DATA payload e was cut under a positive window and, max_frame_size
                          being positive, is within both
     unsent r           = the bytes left over when the observations ran out
     positive_obs obs   = how many of the observations show a positive window
     all_sent obss ms   = the chunk loop finished for each message under its observations
   All theorems quantify over ALL message lists, ALL cuts of the byte stream into DATA payloads
   (concat (payloads ops) = stream is the only link between ops and the stream), ALL paddings and
   ALL interleavings of deliveries with schedulings of the receiver. *)
From Coq Require Import ZArith List Bool.
From GV Require Import Model.Framing Model.RecvBuffer Model.SendChunk Proofs.C01Proofs.
Import ListNotations.
Open Scope Z_scope.

(* (T1) framing is injective and self-delimiting: the reference decoder inverts the encoder *)
Theorem C01_framing_roundtrip :
  forall ms, sizes_ok ms -> parse_frames (concat (map frame ms)) = Some ms.
Proof. exact parse_frames_roundtrip. Qed.
Print Assumptions C01_framing_roundtrip.

(* (T1') domain of send_message: struct.error exactly for messages of 4 GiB or more *)
Theorem C01_send_frame_domain :
  forall m, (zlen m < max_len -> send_frame m = Some (frame m)) /\
            (max_len <= zlen m -> send_frame m = None).
Proof. intros m. split; [apply send_frame_ok|apply send_frame_too_long]. Qed.
Print Assumptions C01_send_frame_domain.

(* (T2) Buffer.read refines the read of an abstract byte queue (unread bytes + closed flag), keeps
   the invariant, never takes the IndexError branch, and when it blocks the flag is off, the queue
   is drained and fewer than n bytes are in the deque *)
Theorem C01_read_refines_byte_queue :
  forall n s s' o cr,
  inv s -> read_start n s = (s', o, cr) ->
  inv s' /\ eof_flag s' = eof_flag s /\
  aread n (abs_q s) (eof_flag s) = (abs_q s', o) /\
  o <> RErr EIndex /\
  (o = RBlocked -> eof_flag s = false /\ unacked s' = [] /\ acked_size s' < n).
Proof.
  intros n s s' o cr Hi H. pose proof (read_start_ok n s Hi) as Hr. rewrite H in Hr.
  destruct Hr as (H1 & H2 & H3 & H4). repeat (split; [assumption|]). split; [|assumption].
  intros ->. apply aread_err in H3. discriminate.
Qed.
Print Assumptions C01_read_refines_byte_queue.

(* (T2) schedule independence: a read that blocked, then a frame arrives, then the reader resumes
   == the frame arrives first and the read runs once (same state, same outcome, same credits) *)
Theorem C01_blocked_read_commutes_with_add :
  forall n s s1 c1 d a,
  read_start n s = (s1, RBlocked, c1) ->
  read_start n (add d a s) = prepend_out c1 (read_resume n (add d a s1)).
Proof. exact blocked_commutes_add. Qed.
Print Assumptions C01_blocked_read_commutes_with_add.

Theorem C01_blocked_read_commutes_with_eof :
  forall n s s1 c1,
  read_start n s = (s1, RBlocked, c1) ->
  read_start n (eof s) = prepend_out c1 (read_resume n (eof s1)).
Proof. exact blocked_commutes_eof. Qed.
Print Assumptions C01_blocked_read_commutes_with_eof.

(* (T2) whole histories: on every legal history the Buffer + recv_message machine equals the
   byte-queue machine step for step; the invariant holds at the end; the IndexError and
   struct.error branches of the totalised model are never taken *)
Theorem C01_history_refines_byte_queue :
  forall ops st' rs,
  wf_ops false ops -> run ops rstate_init = (st', rs) ->
  inv (r_buf st') /\ arun ops (absr rstate_init) = (absr st', rs) /\
  ~ In (RFail EIndex) rs /\ ~ In (RFail EStruct) rs.
Proof.
  intros ops st' rs Hw H. destruct (run_sim ops _ rinv_init Hw) as [[Hi _] Ha].
  rewrite H in Hi, Ha. split; [exact Hi|]. split; [exact Ha|].
  pose proof (arun_fail ops (absr rstate_init)) as Hf. rewrite Ha in Hf.
  split; intros Hin; apply Hf in Hin; discriminate.
Qed.
Print Assumptions C01_history_refines_byte_queue.

(* (T3) MAIN, safety: at every moment of every legal history that has delivered a prefix of the
   stream of frames of ms, what has been returned is a prefix of  ms..., end-of-stream *)
Theorem C01_in_order_intact :
  forall ms ops rest st' rs,
  sizes_ok ms -> wf_ops false ops ->
  concat (payloads ops) ++ rest = concat (map frame ms) ->
  (ended ops = true -> rest = []) ->
  run ops rstate_init = (st', rs) ->
  exists k, rs = firstn k (map RMsg ms ++ [REos]).
Proof.
  intros ms ops rest st' rs Hms Hw Hs.
  apply (run_prefix ms [] ops rest st' rs Hms (or_introl eq_refl) Hw). rewrite app_nil_r. exact Hs.
Qed.
Print Assumptions C01_in_order_intact.

(* (T3) MAIN, completeness: everything delivered, END_STREAM delivered, then length ms + 1 (or
   more) schedulings of the receiver: exactly the messages sent, in order, then end-of-stream *)
Theorem C01_all_delivered :
  forall ms ops k st' rs,
  sizes_ok ms -> wf_ops false ops ->
  concat (payloads ops) = concat (map frame ms) ->
  ended ops = true -> (length ms < k)%nat ->
  run (ops ++ repeat ORecv k) rstate_init = (st', rs) ->
  rs = map RMsg ms ++ [REos].
Proof.
  intros ms ops k st' rs Hms Hw Hs.
  apply (run_complete ms [] ops k st' rs Hms (or_introl eq_refl) Hw). rewrite app_nil_r. exact Hs.
Qed.
Print Assumptions C01_all_delivered.

(* (T4) truncation: complete frames, then a non-empty proper prefix of a frame, then END_STREAM:
   the complete messages, then an exception -- at every moment a prefix of that *)
Theorem C01_truncation_prefix :
  forall ms p ops rest st' rs,
  sizes_ok ms -> inside_a_frame p -> wf_ops false ops ->
  concat (payloads ops) ++ rest = concat (map frame ms) ++ p ->
  (ended ops = true -> rest = []) ->
  run ops rstate_init = (st', rs) ->
  exists k, rs = firstn k (map RMsg ms ++ [RFail EAssert]).
Proof.
  intros ms p ops rest st' rs Hms Hp. rewrite <- (terminal_inside p Hp).
  exact (run_prefix ms p ops rest st' rs Hms (or_intror Hp)).
Qed.
Print Assumptions C01_truncation_prefix.

Theorem C01_truncation_error :
  forall ms p ops k st' rs,
  sizes_ok ms -> inside_a_frame p -> wf_ops false ops ->
  concat (payloads ops) = concat (map frame ms) ++ p ->
  ended ops = true -> (length ms < k)%nat ->
  run (ops ++ repeat ORecv k) rstate_init = (st', rs) ->
  rs = map RMsg ms ++ [RFail EAssert].
Proof.
  intros ms p ops k st' rs Hms Hp. rewrite <- (terminal_inside p Hp).
  exact (run_complete ms p ops k st' rs Hms (or_intror Hp)).
Qed.
Print Assumptions C01_truncation_error.

(* (T4) general form: END_STREAM after ANY prefix `pre` of the stream: a prefix ms1 of the messages,
   then end-of-stream iff pre ends exactly at a message boundary, an exception otherwise *)
Theorem C01_truncation_anywhere :
  forall ms pre suf ops k st' rs,
  sizes_ok ms ->
  pre ++ suf = concat (map frame ms) ->
  wf_ops false ops -> concat (payloads ops) = pre -> ended ops = true ->
  (length ms < k)%nat ->
  run (ops ++ repeat ORecv k) rstate_init = (st', rs) ->
  exists ms1 ms2 t, ms = ms1 ++ ms2 /\ rs = map RMsg ms1 ++ [t] /\
    ((t = REos /\ pre = concat (map frame ms1)) \/
     (t = RFail EAssert /\ pre <> concat (map frame ms1))) /\
    (suf = [] -> t = REos /\ ms2 = []).
Proof. exact run_any_truncation. Qed.
Print Assumptions C01_truncation_anywhere.

(* (T3/T4) never a fabricated message: clean or truncated stream, any moment of any history *)
Theorem C01_no_fabrication :
  forall ms p ops rest st' rs m,
  sizes_ok ms -> (p = [] \/ inside_a_frame p) -> wf_ops false ops ->
  concat (payloads ops) ++ rest = concat (map frame ms) ++ p ->
  (ended ops = true -> rest = []) ->
  run ops rstate_init = (st', rs) ->
  In (RMsg m) rs -> In m ms.
Proof.
  intros ms p ops rest st' rs m Hms Hp Hw Hs He H.
  exact (run_no_fabrication ms p ops rest st' rs Hms Hp Hw Hs He H m).
Qed.
Print Assumptions C01_no_fabrication.

(* end-of-stream is sticky for further recv_message calls *)
Theorem C01_eos_sticky :
  forall s, inv s -> eof_flag s = true -> abs_q s = [] ->
  exists s' cr, recv_step PIdle s = (s', PIdle, Some REos, cr) /\
                inv s' /\ eof_flag s' = true /\ abs_q s' = [].
Proof. exact eos_sticky. Qed.
Print Assumptions C01_eos_sticky.

(* Boundary (finding): the full-strength variant of C01_no_fabrication for a caller that calls
   recv_message AGAIN after it raised on a truncated stream is false -- see the comment above
   read_after_error_refuted in Proofs/C01Proofs.v.  C01_truncation_* / C01_no_fabrication are the
   partial statements: the consumer stops at the first exception. *)
Theorem C01_read_after_error_refuted :
  exists ms p ops m,
    sizes_ok ms /\ inside_a_frame p /\ wf_ops false ops /\
    concat (payloads ops) = concat (map frame ms) ++ p /\ ended ops = true /\
    snd (run_raw ops rstate_init) = [RFail EAssert; RMsg m] /\ ~ In m ms.
Proof. exact read_after_error_refuted. Qed.
Print Assumptions C01_read_after_error_refuted.

(* (T5) sender: for ANY sequence of (window, max_frame_size) observations, the DATA payloads
   emitted, followed by what is still unsent, are the data; every payload was cut under a positive
   window and -- max_frame_size being positive -- is no larger than the window and the frame
   size seen at that moment, and is non-empty when there was data to send *)
Theorem C01_sender_chunks :
  forall obs data cs r,
  send_loop obs data = (cs, r) ->
  concat (map e_chunk cs) ++ unsent r = data /\
  Forall chunk_ok cs /\
  (data <> [] -> Forall (fun e => 0 < e_maxframe e -> e_chunk e <> []) cs).
Proof. exact send_loop_spec. Qed.
Print Assumptions C01_sender_chunks.

(* (T5) termination: max(1, len(data)) observations with a positive window suffice *)
Theorem C01_sender_terminates :
  forall obs data,
  Forall (fun o => 0 < snd o) obs ->
  (Nat.max 1 (length data) <= positive_obs obs)%nat ->
  snd (send_loop obs data) = None.
Proof. exact send_loop_terminates. Qed.
Print Assumptions C01_sender_terminates.

(* (T5) the lengths-only loop used by the correspondence check is the byte loop *)
Theorem C01_sender_sizes :
  forall obs data,
  map (fun e => zlen (e_chunk e)) (fst (send_loop obs data)) = fst (send_sizes obs (zlen data)) /\
  option_map (@zlen Z) (snd (send_loop obs data)) = snd (send_sizes obs (zlen data)).
Proof. exact send_sizes_spec. Qed.
Print Assumptions C01_sender_sizes.

(* (T6) end to end: every message chunked by the sender under its own adversarial observations,
   the payloads re-cut on the way in any manner, any padding, any schedule at the receiver *)
Theorem C01_end_to_end :
  forall ms obss ops k st' rs,
  sizes_ok ms -> all_sent obss ms ->
  wf_ops false ops ->
  concat (payloads ops) = concat (send_all obss ms) ->
  ended ops = true -> (length ms < k)%nat ->
  run (ops ++ repeat ORecv k) rstate_init = (st', rs) ->
  rs = map RMsg ms ++ [REos].
Proof.
  intros ms obss ops k st' rs Hms Ha Hw Hp.
  rewrite (send_all_concat _ _ Ha), <- (app_nil_r (concat (map frame ms))) in Hp.
  exact (run_complete ms [] ops k st' rs Hms (or_introl eq_refl) Hw Hp).
Qed.
Print Assumptions C01_end_to_end.
