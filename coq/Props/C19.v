(* C19 -- Health service reports the true aggregate and never misses the latest change.
   This file holds only the property theorems; each is an instance of a theorem proved in Proofs/C19*.v
   for every state of the invariant (or for every state), or is read off a definition or the truth table
   agg_status_cases in a line, and is followed by Print Assumptions.
   Non-vacuity examples: Proofs/C19Examples.v (required here so that they are checked with the theorems).
   Status values: STrue / SFalse / SNone = Python True / False / None.  Times are Z ticks. *)
From Coq Require Import ZArith List Bool.
From GV Require Import Gen.FactsC19 Model.Health Proofs.C19Proofs Proofs.C19WatchProofs Proofs.C19CheckProofs
  Proofs.C19PollProofs Proofs.C19Examples.
Import ListNotations.
Open Scope Z_scope.

(* (1) the aggregate: truth table for ALL lists of check statuses, of every length *)

Theorem C19_aggregate_serving :
  forall l, agg_status l = R_SERVING <-> l <> [] /\ (forall s, In s l -> s = STrue).
Proof. intro l. destruct (agg_status_cases l) as [[E H]|[[E H]|[E H]]]; rewrite E; split; (discriminate || tauto). Qed.
Print Assumptions C19_aggregate_serving.

Theorem C19_aggregate_unknown :
  forall l, agg_status l = R_UNKNOWN <-> l <> [] /\ (forall s, In s l -> s = SNone).
Proof. intro l. destruct (agg_status_cases l) as [[E H]|[[E H]|[E H]]]; rewrite E; split; (discriminate || tauto). Qed.
Print Assumptions C19_aggregate_unknown.

Theorem C19_aggregate_not_serving_otherwise :
  forall l, agg_status l = R_NOT_SERVING <->
            ~ (l <> [] /\ (forall s, In s l -> s = STrue)) /\ ~ (l <> [] /\ (forall s, In s l -> s = SNone)).
Proof. intro l. destruct (agg_status_cases l) as [[E H]|[[E H]|[E H]]]; rewrite E; split; (discriminate || tauto). Qed.
Print Assumptions C19_aggregate_not_serving_otherwise.

(* the aggregate is a function of the SET of statuses: order and multiplicity of the checks are irrelevant *)
Theorem C19_aggregate_depends_on_set :
  forall l1 l2, (forall s, In s l1 <-> In s l2) -> agg_status l1 = agg_status l2.
Proof. exact agg_status_set. Qed.
Print Assumptions C19_aggregate_depends_on_set.

(* Health.Check: NOT_FOUND (grpc-status 5) for an unregistered service ... *)
Theorem C19_check_unregistered_not_found :
  forall reg vals name, lookup reg name = None -> check_rpc reg vals name = CA_Status 5.
Proof. intros reg vals name H. unfold check_rpc. rewrite H. reflexivity. Qed.
Print Assumptions C19_check_unregistered_not_found.

(* ... SERVING exactly when all checks of the service pass (in particular when it has none), UNKNOWN
   exactly when there are checks and all are unknown, NOT_SERVING otherwise *)
Theorem C19_check_registered :
  forall reg vals name cs, lookup reg name = Some cs ->
  exists r, check_rpc reg vals name = CA_Resp r /\
    (r = R_SERVING <-> (forall i, In i cs -> val_of vals i = STrue)) /\
    (r = R_UNKNOWN <-> cs <> [] /\ (forall i, In i cs -> val_of vals i = SNone)) /\
    (r = R_SERVING \/ r = R_UNKNOWN \/ r = R_NOT_SERVING).
Proof. exact check_registered. Qed.
Print Assumptions C19_check_registered.

(* Health.__init__: OVERALL ('' = name 0) defaults to the union of all check lists *)
Theorem C19_registry_default_overall :
  forall (cfg : list (Z * list nat)) name,
  existsb (fun kv => fst kv =? overall) cfg = false ->
  lookup (health_init (Some cfg)) name =
    (if overall =? name then Some (dedup (concat (map snd cfg))) else option_map dedup (lookup cfg name)) /\
  (forall i, In i (dedup (concat (map snd cfg))) <-> exists kv, In kv cfg /\ In i (snd kv)).
Proof. intros cfg name H. split; [exact (health_init_default cfg name H) | exact (overall_default_members cfg)]. Qed.
Print Assumptions C19_registry_default_overall.

(* (2) Watch.  wstep/wrun: ANY interleaving of ServiceStatus.set / ServiceCheck results (OSet), new
   watchers on any service (OWatch), and per watcher: steps of its wait tasks, asyncio.wait completion
   callbacks, the Watch task, a blocked send_message returning, cancellation (OLocal). *)

(* the first message is the status at subscription time (SERVICE_UNKNOWN for an unregistered service) *)
Theorem C19_watch_first_message :
  forall s name slow,
  exists w, s_ws (wstep s (OWatch name slow)) = s_ws s ++ [w] /\
            w_sent w = [watch_status (s_reg s) (s_vals s) name].
Proof. exact watch_first_message. Qed.
Print Assumptions C19_watch_first_message.

(* messages are only appended, and each is the aggregate at the moment it is sent *)
Theorem C19_watch_messages_truthful :
  forall s op k w w',
  nth_error (s_ws s) k = Some w -> nth_error (s_ws (wstep s op)) k = Some w' ->
  w_sent w' = w_sent w \/ w_sent w' = cur_status (s_vals s) (w_slots w') :: w_sent w.
Proof. exact watch_messages_truthful. Qed.
Print Assumptions C19_watch_messages_truthful.

(* no missed update: in every state reachable by any op list, a watcher with nothing pending (Watch task
   suspended in asyncio.wait, every wait task suspended on its event) has delivered the CURRENT
   aggregate last *)
Theorem C19_watch_no_missed_update :
  forall reg vals0 ops w,
  let s := wrun (winit reg vals0) ops in
  In w (s_ws s) -> w_pc w = PWaiting -> forallb slot_quiet (w_slots w) = true ->
  hd_error (w_sent w) = Some (cur_status (s_vals s) (w_slots w)).
Proof. intros reg vals0 ops w. apply no_missed_update, wrun_ok, winit_ok. Qed.
Print Assumptions C19_watch_no_missed_update.

(* ... and such a state is always reached: from every reachable state, with no further change, at most
   sys_mu internal steps (wait tasks, callbacks, Watch tasks, blocked sends returning) lead to a quiescent
   state in which every live watcher has delivered the current aggregate last *)
Theorem C19_watch_settles :
  forall s, wreach s ->
  exists ops, forallb internal ops = true /\ (length ops <= sys_mu s)%nat /\
              quiescent (wrun s ops) = true /\ s_vals (wrun s ops) = s_vals s /\
              (forall w, In w (s_ws (wrun s ops)) -> w_pc w = PWaiting ->
                         hd_error (w_sent w) = Some (cur_status (s_vals s) (w_slots w))).
Proof. intros s H. exact (watch_settles s (wreach_ok s H)). Qed.
Print Assumptions C19_watch_settles.

(* EVERY schedule of enabled internal steps is that short (no busy loop, no flood of messages), and in a
   quiescent state internal steps change nothing *)
Theorem C19_watch_schedules_terminate :
  forall s ops, wreach s -> all_enabled s ops = true -> (length ops + sys_mu (wrun s ops) <= sys_mu s)%nat.
Proof. intros s ops H. exact (watch_schedules_terminate s ops (wreach_ok s H)). Qed.
Print Assumptions C19_watch_schedules_terminate.

Theorem C19_watch_quiescent_is_stable :
  forall s ops, quiescent s = true -> forallb internal ops = true -> wrun s ops = s.
Proof. exact quiescent_stays. Qed.
Print Assumptions C19_watch_quiescent_is_stable.

(* the FIFO ready-queue runs executed by the correspondence check are op lists of the above kind *)
Theorem C19_fifo_is_schedule :
  forall fuel s q c, exists ops, fst (run_cmd fuel (s, q) c) = wrun s ops.
Proof. exact fifo_is_schedule. Qed.
Print Assumptions C19_fifo_is_schedule.

(* (3) ServiceCheck.__check__.  kstep/krun: ANY sequence of new callers (KCall), function results
   (KFuncEnd: True / False / None / non-bool / raise), the deadline timer (KTimeout), Task.cancel on any
   caller (KCancel) and its delivery (KDeliver), woken waiters running (KResume), time passing (KAdvance). *)

(* never concurrently: at most one caller is inside the function, and the runs never overlap *)
Theorem C19_check_single_flight :
  forall ttl tmo t0 ops,
  let k := krun (kinit ttl tmo t0) ops in
  (count_run (k_callers k) <= 1)%nat /\ no_overlap (invocations k).
Proof. intros ttl tmo t0 ops. exact (single_flight _ _ _ (reach_inv ttl tmo t0 ops)). Qed.
Print Assumptions C19_check_single_flight.

(* at most once per TTL -- FULL-STRENGTH statement (any two runs are check_ttl apart):
     forall ttl tmo t0 ops, strict_spaced ttl (invocations (krun (kinit ttl tmo t0) ops))
   is FALSE of the faithful model: a caller cancelled while it runs the function aborts the shared run,
   nothing is cached and the next call runs the function again at once.  Witness (replayed on the code by
   corpus/C19/rerun_after_abort.json): *)
Theorem C19_once_per_ttl_strict_refuted :
  exists ttl tmo ops, 0 < ttl /\ 0 < tmo /\ ~ strict_spaced ttl (invocations (krun (kinit ttl tmo 0) ops)).
Proof. exact once_per_ttl_strict_refuted. Qed.
Print Assumptions C19_once_per_ttl_strict_refuted.

(* strongest true statement: a run that produced a status (returned, raised, timed out -- everything but
   an abort by outside cancellation) is followed by the next run no earlier than check_ttl after its end *)
Theorem C19_once_per_ttl_partial :
  forall ttl tmo t0 ops, ttl_spaced ttl (invocations (krun (kinit ttl tmo t0) ops)).
Proof. intros ttl tmo t0 ops. apply (i_spaced _ _ _ (reach_inv ttl tmo t0 ops)). Qed.
Print Assumptions C19_once_per_ttl_partial.

(* while the cached result is fresh a call returns it without running the function *)
Theorem C19_check_cached_no_run :
  forall k, cached k = true ->
  let k' := kstep k KCall in
  k_run k' = k_run k /\ k_log k' = k_log k /\ k_value k' = k_value k /\
  k_callers k' = k_callers k ++ [CRet (k_value k) (k_now k)].
Proof. intros k C. cbn [kstep]. rewrite k_call_eq, C. repeat split. Qed.
Print Assumptions C19_check_cached_no_run.

(* every run is over by start + check_timeout *)
Theorem C19_check_timeout_bound :
  forall ttl tmo t0 ops,
  let k := krun (kinit ttl tmo t0) ops in
  forall s e h, In (s, e, h) (invocations k) ->
  0 < tmo /\ match e with Some e' => s <= e' <= s + tmo | None => s <= k_now k <= s + tmo end.
Proof. intros ttl tmo t0 ops. exact (invocation_bound _ _ _ (reach_inv ttl tmo t0 ops)). Qed.
Print Assumptions C19_check_timeout_bound.

(* a caller is suspended only while a run is in flight, i.e. never beyond that run's start + check_timeout *)
Theorem C19_check_callers_not_blocked :
  forall ttl tmo t0 ops,
  let k := krun (kinit ttl tmo t0) ops in
  (In CWait (k_callers k) \/ exists b, In (CRun b) (k_callers k)) ->
  exists s p, k_run k = Some (s, Some (s + tmo), p) /\ s <= k_now k <= s + tmo /\ k_lock k = false.
Proof. intros ttl tmo t0 ops. exact (in_flight _ _ _ (reach_inv ttl tmo t0 ops)). Qed.
Print Assumptions C19_check_callers_not_blocked.

(* raise / non-bool => the check counts as failing, the caller returns False, every waiter is released *)
Theorem C19_check_failure_is_false :
  forall k r, kreach k -> runner_state k = Some false -> r = FRaise \/ r = FNonBool ->
  let k' := kstep k (KFuncEnd r) in
  k_value k' = SFalse /\ k_last k' = Some (k_now k) /\ run_over k' /\
  (forall c b, nth_error (k_callers k) c = Some (CRun b) -> nth_error (k_callers k') c = Some (CRet SFalse (k_now k))).
Proof. intros k r _. apply failure_is_false. Qed.
Print Assumptions C19_check_failure_is_false.

(* running until check_timeout => the timer ends the run at exactly start + check_timeout (time cannot
   pass it), the check counts as failing, the caller returns False, every waiter is released *)
Theorem C19_check_timeout_is_false :
  forall k b s p,
  kreach k -> runner_state k = Some b -> k_run k = Some (s, Some (s + k_tmo k), p) -> k_now k = s + k_tmo k ->
  let k' := kstep k KTimeout in
  k_value k' = SFalse /\ k_last k' = Some (k_now k) /\ run_over k' /\
  In (s, Some (s + k_tmo k), Some HTimeout) (invocations k') /\
  (forall c b', nth_error (k_callers k) c = Some (CRun b') -> nth_error (k_callers k') c = Some (CRet SFalse (k_now k))) /\
  (forall dt, k_now (kstep k (KAdvance dt)) = k_now k).
Proof. intros k b s p _. apply timeout_is_false. Qed.
Print Assumptions C19_check_timeout_is_false.

(* check_timeout <= 0: failing at once, the function is not called *)
Theorem C19_check_zero_timeout :
  forall k, kreach k -> cached k = false -> k_lock k = true -> k_tmo k <= 0 ->
  let k' := kstep k KCall in
  k_value k' = SFalse /\ k_log k' = k_log k /\ k_run k' = None /\
  k_callers k' = k_callers k ++ [CRet SFalse (k_now k)].
Proof.
  intros k _ C L T. apply Z.leb_le in T. cbn [kstep]. rewrite k_call_eq, C, L, T. repeat split.
Qed.
Print Assumptions C19_check_zero_timeout.

(* the error branch of cancellation: an aborted run changes neither the value nor _last_check, notifies
   nobody, and releases the latch and the waiters *)
Theorem C19_check_abort_invisible :
  forall k, kreach k -> runner_state k = Some true ->
  let k' := kstep k KDeliver in
  k_value k' = k_value k /\ k_last k' = k_last k /\ k_notes k' = k_notes k /\ run_over k'.
Proof. intros k _. apply abort_invisible. Qed.
Print Assumptions C19_check_abort_invisible.

(* a later check can succeed again (no sticky error) *)
Theorem C19_check_recovers :
  forall k, kreach k -> cached k = false -> k_lock k = true -> 0 < k_tmo k ->
  let k' := krun k [KCall; KFuncEnd FTrue] in
  k_value k' = STrue /\
  k_callers k' = end_callers (CRet STrue (k_now k)) (k_now k) (k_callers k) ++ [CRet STrue (k_now k)] /\
  run_over k'.
Proof. intros k H. exact (check_recovers _ _ k (kreach_inv k H)). Qed.
Print Assumptions C19_check_recovers.

(* the value changes only together with a notification of the watchers: this is the OSet of part (2) *)
Theorem C19_check_change_notifies :
  forall k op, kreach k -> k_value (kstep k op) <> k_value k ->
  k_notes (kstep k op) = (k_now k, k_value (kstep k op)) :: k_notes k.
Proof. intros k op H. exact (change_notifies _ _ k op (kreach_inv k H)). Qed.
Print Assumptions C19_check_change_notifies.

(* cancellation of a caller -- FULL-STRENGTH statement (a caller cancelled before it finished never
   returns a value) is FALSE of the faithful model: a Task.cancel() requested in the instant the deadline
   timer fires is swallowed (Wrapper.__exit__ turns the CancelledError into the TimeoutError that __check__
   catches).  On the code this lets the poll task survive __unsubscribe__, whose `await task` then never
   returns (corpus/C19/unsubscribe_at_deadline.json). *)
Theorem C19_cancel_reaches_caller_refuted :
  exists ttl tmo ops1 c ops2,
    nth_error (k_callers (krun (kinit ttl tmo 0) ops1)) c = Some (CRun false) /\
    nth_error (k_callers (krun (kinit ttl tmo 0) (ops1 ++ [KCancel c]))) c = Some (CRun true) /\
    nth_error (k_callers (krun (kinit ttl tmo 0) (ops1 ++ KCancel c :: ops2))) c = Some (CRet SFalse 80).
Proof. exact cancel_reaches_caller_refuted. Qed.
Print Assumptions C19_cancel_reaches_caller_refuted.

(* strongest true statement: if the deadline has not been reached, no step makes the cancelled caller
   return; the only step that changes it is the delivery of the CancelledError *)
Theorem C19_cancel_reaches_caller_partial :
  forall k c op, kreach k -> nth_error (k_callers k) c = Some (CRun true) ->
  (forall s dl p, k_run k = Some (s, dl, p) -> k_now k < s + k_tmo k) ->
  nth_error (k_callers (kstep k op)) c = Some (CRun true) \/
  nth_error (k_callers (kstep k op)) c = Some (CCancelled (k_now k)).
Proof. intros k c op H. exact (cancel_reaches_caller_partial _ _ k c op (kreach_inv k H)). Qed.
Print Assumptions C19_cancel_reaches_caller_partial.

(* (3') the poll task behind Watch on a ServiceCheck.  pstep/prun: ANY interleaving of watchers subscribing,
   unsubscribing (the last one cancels the poll task and stays suspended in `await task`), cancelled poll
   tasks ending and suspended unsubscribes continuing -- including "the last one leaves, the next one joins"
   in adjacent loop iterations.  Whoever is subscribed is served by a live, un-cancelled poll task (which
   calls __check__ every check_ttl: the KCall of part (3)); the assert in __unsubscribe__ never fails. *)
Theorem C19_poll_alive :
  forall ops,
  let s := prun pinit ops in
  p_err s = false /\
  ((0 < p_events s)%nat -> exists t, p_poll s = Some t /\ In (t, false) (p_live s)) /\
  (p_events s = 0%nat -> p_poll s = None).
Proof. exact poll_alive. Qed.
Print Assumptions C19_poll_alive.

(* (4) the model is instantiated with what the code does now (Gen.FactsC19: regenerated on every run by probing
   grpclib.health over the finite domains listed in tools/facts_C19.py) *)
Theorem C19_source_facts :
  status_table = [((true, true, true), 2); ((true, true, false), 2); ((true, false, true), 2); ((true, false, false), 1);
                  ((false, true, true), 2); ((false, true, false), 2); ((false, false, true), 0)] /\
  check_unregistered_grpc_status = 5 /\ check_empty_resp = 1 /\
  watch_unregistered_resp = 3 /\ watch_empty_resp = 1 /\
  watch_first_completed = true /\ reset_when_absent_or_done = true /\ reset_clears_then_waits = true /\
  watch_segment_atomic = true /\
  ttl_cmp = 0 /\ latch_cleared_before_run = true /\ latch_set_in_finally = true /\ func_guarded = true /\
  nonbool_is_type_error = true /\ check_failure_value = 0 /\
  check_notifies_on_change = true /\ set_notifies_on_change = true /\
  map snd serving_status_enum = [0; 1; 2; 3] /\
  subscribe_starts_poll_when_none = true /\ poll_cleared_before_await = true.
Proof. repeat split. Qed.
Print Assumptions C19_source_facts.
