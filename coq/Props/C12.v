(* C12 -- Peer input never escapes as an internal error; tolerable frames are tolerated.
   Only the property theorems; each is a lemma of Proofs/C12Proofs.v or follows from one in a line
   or two, and is followed by Print Assumptions.  Everything is stated from the h2-EVENT boundary up, about
   Model/Dispatch.v instantiated with the table Gen.Facts.processors that is regenerated from
   grpclib/protocol.py on every run.  Below that boundary (bytes -> events) h2 is modelled as
   "raises ProtocolError or returns events"; that part is covered by the fuzz-style correspondence
   of harness/drive_C12.py only. *)
From Coq Require Import ZArith List Bool String.
From GV Require Import Lib.Str Gen.Facts Gen.FactsC12 Model.Dispatch Proofs.C12Proofs.
Import ListNotations.
Open Scope Z_scope.

(* (0) the dispatch table in the source is the one the handler transcriptions were written for:
   13 classes, each mapped to the method of its name; UnknownFrameReceived,
   AlternativeServiceAvailable, InformationalResponseReceived, PushedStreamReceived have no entry *)
Theorem C12_source_table :
  table_as_expected = true /\
  assoc_str (s2z "UnknownFrameReceived") processors = None /\
  assoc_str (s2z "AlternativeServiceAvailable") processors = None /\
  assoc_str (s2z "InformationalResponseReceived") processors = None /\
  assoc_str (s2z "PushedStreamReceived") processors = None.
Proof. split; [exact table_ok | vm_compute; auto]. Qed.
Print Assumptions C12_source_table.

(* (0') the functions the model transcribes still have the shape the transcription was made from
   (Gen.FactsC12: effect tokens of process, the 13 process_* methods, close, ack, data_received,
   connection_lost, Stream.__terminated__/__ended__/closable/reset_nowait, both Handler classes; the
   reason texts are part of the tokens) *)
Theorem C12_source_shape : shape_as_expected = true.
Proof. vm_compute. reflexivity. Qed.
Print Assumptions C12_source_shape.

(* (1) TOTALITY, either endpoint, FULL: for every history of inputs (batches of events of every
   kind, h2 protocol errors, undecodable header blocks, connection loss, calls / handlers starting
   and finishing, Server.close, in any order) nothing is ever raised out of data_received.  The only
   hypothesis is event_wf: what h2 guarantees about the numbers in its events (DataReceived for a
   positive stream id with non-negative lengths -- h2.acknowledge_received_data raises ValueError
   otherwise; an OtherEvent is of another class); the driver checks it on every real event.
   No "one StreamReset per stream" discipline of the peer is assumed: server.Handler.cancel pops
   with a default. *)
Theorem C12_endpoint_total :
  forall ro h, forallb input_wf h = true ->
  exists s', run (init ro) h = Ok s' /\ inv_b s' = true.
Proof.
  intros ro h W.
  destruct (history_total ro h (init ro) (conj eq_refl eq_refl) W) as (s' & E & _ & I). eauto.
Qed.
Print Assumptions C12_endpoint_total.

(* (1') one batch delivered in ANY state of either endpoint whose transport is live while its
   processor is (inv_b; the driver evaluates it on every real pre-state) *)
Theorem C12_batch_total :
  forall s b, inv_b s = true -> input_wf (IData b) = true ->
  exists s', data_received s b = Ok s' /\ inv_b s' = true.
Proof.
  intros s b I W.
  destruct (batch_total (st_role s) s b (conj eq_refl I) W) as (s' & E & _ & I'). eauto.
Qed.
Print Assumptions C12_batch_total.

(* (1'') a StreamReset for a registered stream whose handler task is no longer in _tasks (already
   reset, or finished): the wrapper is terminated again, the handler tables are untouched *)
Theorem C12_late_reset_tolerated :
  forall rest s sid code remote r,
  st_role s = Server -> st_closed s = false ->
  lookup sid (st_reg s) = Some r -> has_live_task sid (st_h s) = false ->
  exists s', process rest s (StreamReset sid code remote) = Ok s' /\
    st_h s' = st_h s /\
    st_reg s' = upd sid (terminated (if remote then RRemoteReset code else RProtocolError) r) (st_reg s).
Proof. exact late_reset_tolerated. Qed.
Print Assumptions C12_late_reset_tolerated.

(* (2) each endpoint by itself *)
Theorem C12_server_total :
  forall h, forallb input_wf h = true ->
  exists s', run (init Server) h = Ok s' /\ inv_b s' = true.
Proof. exact (C12_endpoint_total Server). Qed.
Print Assumptions C12_server_total.

(* the client's histories include RequestReceived (a server peer opening a stream),
   on which client.Handler.accept raised NotImplementedError (D21) and then let h2.reset_stream raise
   when the same chunk had already closed the connection or the stream; accept resets only a
   `closable` stream *)
Theorem C12_client_total :
  forall h, forallb input_wf h = true ->
  exists s', run (init Client) h = Ok s' /\ inv_b s' = true.
Proof. exact (C12_endpoint_total Client). Qed.
Print Assumptions C12_client_total.

(* Stream.closable is sufficient for h2.reset_stream not to raise (the h2 model: after a GOAWAY in
   the batch the connection is CLOSED, after a reset of the stream in the batch the stream is) *)
Theorem C12_closable_reset_cannot_raise :
  forall rest s sid, closable rest s sid = true -> h2_reset_stream rest sid = None.
Proof. exact closable_reset_ok. Qed.
Print Assumptions C12_closable_reset_cannot_raise.

(* a stream the peer opens towards a client is refused and leaves no trace: registry, every call
   record, handler and flags are unchanged (the slot-waiter wake-up is set), and RST_STREAM is sent
   exactly when the stream is still closable *)
Theorem C12_client_request_refused :
  forall rest s sid, st_role s = Client -> st_closed s = false -> lookup sid (st_reg s) = None ->
  exists s', process rest s (RequestReceived sid) = Ok s' /\
    st_reg s' = st_reg s /\ st_h s' = st_h s /\ st_closed s' = false /\
    st_tclosed s' = st_tclosed s /\ st_ping s' = st_ping s /\ st_credit s' = st_credit s /\
    st_waiter s' = true /\
    st_rst s' = st_rst s ++ (if closable rest s sid then [sid] else []).
Proof.
  intros rest s sid R C L. eexists. split; [exact (client_request_refused rest s sid R C L)|].
  destruct (closable rest s sid); simpl; rewrite ?app_nil_r; auto 10.
Qed.
Print Assumptions C12_client_request_refused.

(* (3) TOLERANCE: events of the kinds HTTP/2 requires an endpoint to ignore (and of any class h2
   may add) leave EVERY state of either endpoint exactly as it was ... *)
Theorem C12_tolerated_ignored :
  forall rest s e, tolerated e = true -> event_wf e = true -> process rest s e = Ok s.
Proof. exact tolerated_ignored. Qed.
Print Assumptions C12_tolerated_ignored.

(* ... wherever they are injected into a batch *)
Theorem C12_tolerated_anywhere :
  forall pre tol post s, forallb tolerated tol = true -> forallb event_wf tol = true ->
  run_events s (pre ++ tol ++ post) = run_events s (pre ++ post).
Proof. exact tolerated_anywhere. Qed.
Print Assumptions C12_tolerated_anywhere.

(* a PING acknowledgement touches the keepalive close timer only *)
Theorem C12_ping_ack_only_timer :
  forall rest s, process rest s PingAckReceived = Ok (if st_closed s then s else set_ping s false).
Proof. intros. rewrite process_spec by reflexivity. destruct (st_closed s); reflexivity. Qed.
Print Assumptions C12_ping_ack_only_timer.

(* (3') frames for a stream that already finished (is not registered): registry, every call
   record, handler and flags are unchanged; DataReceived only returns its flow-control credit *)
Theorem C12_unregistered_stream_tolerated :
  forall rest s e sid, inv_b s = true -> event_wf e = true ->
  stream_addressed e = Some sid -> lookup sid (st_reg s) = None ->
  exists s', process rest s e = Ok s' /\ same_calls s s' /\
             st_credit s' = st_credit s ++ returned_credit s e.
Proof. exact unregistered_tolerated. Qed.
Print Assumptions C12_unregistered_stream_tolerated.

(* (4) VIOLATION => ORDERLY SHUTDOWN.  h2 reports a protocol error: every registered stream that
   has a wrapper is terminated with 'Protocol error', the handler is closed (server: every handler
   task cancelled), the transport is closed, and whatever comes later is ignored *)
Theorem C12_protocol_error_shuts_down :
  forall s, exists s', data_received s H2ProtocolError = Ok s' /\
    shut_down RProtocolError s' = true /\
    (forall evs, run_events s' evs = Ok s') /\ (forall b, step s' (IData b) = Ok s').
Proof. intro s. exists (close_conn RProtocolError s). split; [reflexivity | apply close_conn_final]. Qed.
Print Assumptions C12_protocol_error_shuts_down.

Theorem C12_connection_lost_shuts_down :
  forall s, exists s', step s IConnLost = Ok s' /\ shut_down RConnLost s' = true /\
    (forall evs, run_events s' evs = Ok s') /\ (forall b, step s' (IData b) = Ok s').
Proof. intro s. exists (close_conn RConnLost s). split; [reflexivity | apply close_conn_final]. Qed.
Print Assumptions C12_connection_lost_shuts_down.

(* whenever ANY batch closes a live connection (protocol error, or GOAWAY anywhere in the batch),
   the result is a complete shutdown *)
Theorem C12_closing_batch_shuts_down :
  forall s b s', input_wf (IData b) = true -> data_received s b = Ok s' ->
  st_closed s = false -> st_closed s' = true ->
  exists why, shut_down why s' = true /\
    (forall evs, run_events s' evs = Ok s') /\ (forall b', step s' (IData b') = Ok s').
Proof.
  intros s b s' W P C C'. destruct (closing_batch s b s' W P C C') as (why & s1 & ->).
  exists why. apply close_conn_final.
Qed.
Print Assumptions C12_closing_batch_shuts_down.

(* a header block h2 cannot decode (UnicodeDecodeError, D22) takes the same branch *)
Theorem C12_undecodable_headers_shut_down :
  forall s, data_received s H2UnicodeDecodeError = data_received s H2ProtocolError.
Proof. reflexivity. Qed.
Print Assumptions C12_undecodable_headers_shut_down.

(* GOAWAY anywhere in a batch: the events before it are processed (h2 having already seen the
   GOAWAY), then everything is shut down and the rest of the batch is ignored.
   run_events_in tail = processing a prefix of a batch whose remaining events `tail` h2 has already
   digested *)
Theorem C12_goaway_mid_batch :
  forall s pre c post s1,
  run_events_in (ConnectionTerminated c :: post) s pre = Ok s1 -> st_closed s1 = false ->
  run_events s (pre ++ ConnectionTerminated c :: post) = Ok (close_conn (RGoaway c) s1).
Proof.
  intros s pre c post s1 R C. rewrite run_events_app, R. simpl.
  rewrite process_spec, C by reflexivity. apply (closed_ignores_all post). reflexivity.
Qed.
Print Assumptions C12_goaway_mid_batch.

(* after close(): processors is deleted, every event of every kind is ignored *)
Theorem C12_closed_ignores_all :
  forall evs s, st_closed s = true -> run_events s evs = Ok s.
Proof. exact closed_ignores_all. Qed.
Print Assumptions C12_closed_ignores_all.
